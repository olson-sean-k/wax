(* ParseFacts.v -- escaping (Query.v) against the literal parser (Parse.v): the special characters are the separator, the
   meta-characters and the backslash; an escaped run without separator and backslash is read back as itself (C18).  Byte lengths:
   [blen_app], and dropping the bytes of a prefix leaves the suffix ([drop_bytes_app], C08). *)
From WaxModel Require Import Base Parse Query.

Lemma mem_special_split :
  forall c, mem c LIT_SPECIAL = (N.eqb c SEP || (is_meta_character c || N.eqb c BSLASH)).
Proof.
  intros c. change LIT_SPECIAL with (SEP :: GLOB_META ++ [BSLASH]).
  unfold mem, is_meta_character. cbn [existsb]. rewrite existsb_app. cbn [existsb]. rewrite orb_false_r. reflexivity.
Qed.

Lemma meta_escapable : forall c, is_meta_character c = mem c LIT_ESCAPABLE.
Proof. reflexivity. Qed.

Definition plain (s : str) : bool := forallb (fun c => negb (N.eqb c SEP) && negb (N.eqb c BSLASH)) s.

Lemma sep_not_meta : is_meta_character SEP = false. Proof. reflexivity. Qed.

(* C18: the literal parser reads an escaped separator-free, backslash-free string back as that string, and stops at a separator *)
Lemma lit_chars_escape_app : forall a rest, plain a = true -> (rest = [] \/ exists r, rest = SEP :: r) ->
  lit_chars (escape (a ++ rest)) = Some (a, escape rest).
Proof.
  induction a as [|c a IH]; intros rest Hp Hr.
  - cbn [app]. destruct Hr as [->|[r ->]]; [reflexivity|]. cbn [escape]. rewrite sep_not_meta. reflexivity.
  - cbn [plain forallb] in Hp. apply andb_prop in Hp. destruct Hp as [Hc Hs]. fold (plain a) in Hs.
    apply andb_prop in Hc. destruct Hc as [Hsep Hbs]. apply negb_true_iff in Hsep. apply negb_true_iff in Hbs.
    cbn [app escape]. destruct (is_meta_character c) eqn:Em.
    + cbn [lit_chars]. rewrite N.eqb_refl. rewrite <- meta_escapable, Em. rewrite (IH rest Hs Hr). reflexivity.
    + cbn [lit_chars]. rewrite Hbs. rewrite mem_special_split, Hsep, Em, Hbs. cbn [orb]. rewrite (IH rest Hs Hr). reflexivity.
Qed.

Lemma lit_chars_escape : forall s, plain s = true -> lit_chars (escape s) = Some (s, []).
Proof. intros s H. rewrite <- (app_nil_r s) at 1. apply (lit_chars_escape_app s []); [exact H|left; reflexivity]. Qed.

Lemma escape_identity : forall s, existsb is_meta_character s = false -> escape s = s.
Proof.
  induction s as [|c s IH]; intros H; [reflexivity|].
  cbn [existsb] in H. apply orb_false_iff in H. destruct H as [Hc Hs].
  cbn [escape]. rewrite Hc, (IH Hs). reflexivity.
Qed.

Lemma special_is_meta :
  forall c, mem c LIT_SPECIAL = true -> c <> SEP -> c <> BSLASH -> is_meta_character c = true.
Proof.
  intros c H Hs Hb. rewrite mem_special_split in H.
  apply N.eqb_neq in Hs. apply N.eqb_neq in Hb. rewrite Hs, Hb in H. cbn [orb] in H. rewrite orb_false_r in H. exact H.
Qed.

Lemma blen_app : forall a b, blen (a ++ b) = blen a + blen b.
Proof. induction a as [|c a IH]; intros b; cbn [app blen]; [reflexivity|]. rewrite IH. lia. Qed.

Lemma utf8_len_pos : forall c, 1 <= utf8_len c.
Proof. intros c. unfold utf8_len. destruct (c <? 128), (c <? 2048), (c <? 65536); lia. Qed.

(* C08: dropping the bytes of a prefix of the expression leaves the suffix (a character boundary) *)
Lemma drop_bytes_app : forall a b, drop_bytes (a ++ b) (blen a) = Some b.
Proof.
  induction a as [|c a IH]; intros b.
  - cbn [app blen]. destruct b; reflexivity.
  - cbn [app blen drop_bytes]. pose proof (utf8_len_pos c) as Hc.
    destruct (N.eqb_spec (utf8_len c + blen a) 0) as [E|E]; [lia|].
    destruct (N.leb_spec (utf8_len c) (utf8_len c + blen a)) as [_|E2]; [|lia].
    replace (utf8_len c + blen a - utf8_len c) with (blen a) by lia. apply IH.
Qed.
