(* BuiltDepth.v -- C10 for the globs that build: the side conditions of the depth theorems on the tree (separator-free literals, non-empty
   branches; for flat globs also no adjacent boundaries) are discharged by the parser and the rule checker.  For globs with
   repetitions the adjacency condition on the matching expansion stays a hypothesis here; RepClosed discharges it. *)
From WaxModel Require Import Base Token Spec Fold Glob.
From WaxProofs Require Import RuleFacts DepthFacts ExhaustFacts FuelFacts PruneFacts ParseTreeFacts ParseRel.
From WaxProofs Require Import BuiltNonempty DepthTreeFacts DepthAltFacts DepthRepFacts.
Local Open Scope N_scope.

Lemma flat_cat_of : forall ts, ts <> [] -> forallb is_leaf ts = true -> existsb tree_tok ts = false -> forallb lits_nosep ts = true ->
  flat_cat ts = true.
Proof.
  intros ts Hne Hl Ht Hlit. unfold flat_cat. destruct ts as [|t0 ts']; [congruence|]. cbn [is_nil negb andb]. apply forallb_forall. intros t Hin.
  rewrite forallb_forall in Hl, Hlit. specialize (Hl t Hin). specialize (Hlit t Hin).
  assert (Htt : tree_tok t = false).
  { destruct (tree_tok t) eqn:E; [|reflexivity]. rewrite <- Ht. symmetry. apply existsb_exists. eauto. }
  destruct t as [s0 l| | |]; try discriminate. destruct l; try discriminate; cbn; try reflexivity. exact Hlit.
Qed.

Section BuiltDepth.
Variable orbit : char -> list char.
Hypothesis orbit_nosep : forall c d, In d (orbit c) -> d <> SEP.

(* every flat glob that builds (a concatenation of literals, separators, classes, `?`, `*`, `$` and tree wildcards) *)
Theorem built_flat_depth_sound : forall e sp ts r v p l0 rest,
  build e = BuildOk (TCat sp ts) r -> forallb is_leaf ts = true -> map leaf_of ts = l0 :: rest ->
  depth_variance (TCat sp ts) = Ok v -> Lang orbit (TCat sp ts) p ->
  canonical p = true -> 1 <= ncomp p -> starts_sep p = leaf_is_rooting l0 ->
  in_variance (ncomp p) v.
Proof.
  intros e sp ts r v p l0 rest Hb Hl Hls Hv HL Hcan Hn Hroot. destruct (build_ok_inv _ _ _ Hb) as (Hp & Hc & _).
  pose proof (built_no_adjacent_boundary_everywhere _ Hc sp ts (sub_refl _)) as Ha.
  destruct (existsb tree_tok ts) eqn:Et.
  - eapply depth_flat_tree_sound; eassumption.
  - pose proof (parse_lits_nosep _ _ Hp) as Hlit. cbn [lits_nosep] in Hlit.
    assert (Hfc : flat_cat ts = true) by (apply flat_cat_of; try assumption; intros ->; discriminate).
    destruct (flat_cat_parts ts Hfc) as [_ [Hok _]]. rewrite Hls in Hok. cbn [forallb] in Hok. apply andb_prop in Hok. destruct Hok as [H0 _].
    eapply (depth_flat_sound orbit orbit_nosep); try eassumption. rewrite Hroot. destruct l0; try reflexivity. discriminate.
Qed.

(* every glob that builds whose repetitions are written out at least once and have a body with a single depth term: the side
   conditions on the tree are discharged; what remains is about the path and the expansion that matches it (no two boundaries become
   adjacent in it, it begins with a root exactly when the path does) *)
Theorem built_rep_depth_sound : forall e t r v p x,
  build e = BuildOk t r -> simple_reps t = true ->
  depth_variance t = Ok v -> depth_closed_variant t = false ->
  Expands t x -> FlatMatch orbit true true x p -> chain_ok false x = true ->
  canonical p = true -> 1 <= ncomp p ->
  starts_sep p = (match x with a :: _ => leaf_is_rooting a | [] => false end) ->
  in_variance (ncomp p) v.
Proof.
  intros e t r v p x Hb Hrf Hv Hcv Hx Hm Hc Hcan Hn Hroot. destruct (build_ok_inv _ _ _ Hb) as (Hp & Hck & _).
  eapply (depth_rep_sound orbit orbit_nosep); try eassumption.
  - eapply built_nonempty_branches; exact Hb.
  - eapply parse_lits_nosep; exact Hp.
Qed.

End BuiltDepth.
