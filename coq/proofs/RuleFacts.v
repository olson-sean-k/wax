(* RuleFacts.v -- facts about the rule checker model (Rule.v): which rule a verdict of [check] comes from, what [check_branch] and
   [check_repetition] say of the terminals of a branch when they pass and when they object; [in_variance], with which C10 is stated. *)
From WaxModel Require Import Base Token Variance Fold Rule.

Lemma first_some_l_none :
  forall {A B} (f : A -> option B) l, first_some_l f l = None -> Forall (fun a => f a = None) l.
Proof.
  induction l as [|a l IH]; intros H; [constructor|].
  cbn [first_some_l] in H. destruct (f a) eqn:E; [discriminate|]. constructor; [exact E|apply IH; exact H].
Qed.

Lemma first_some_l_all_none : forall {A B} (f : A -> option B) l, Forall (fun a => f a = None) l -> first_some_l f l = None.
Proof. intros A B f l H. induction H as [|a l Ha _ IH]; [reflexivity|]. cbn [first_some_l]. rewrite Ha. exact IH. Qed.

Lemma first_some_l_some : forall {A B} (f : A -> option B) l b, first_some_l f l = Some b -> exists a, In a l /\ f a = Some b.
Proof.
  induction l as [|a l IH]; intros b H; [discriminate|]. cbn [first_some_l] in H. destruct (f a) as [b0|] eqn:E.
  - inversion H; subst. exists a. split; [left; reflexivity|exact E].
  - destruct (IH b H) as [a0 [Hin Hf]]. exists a0. split; [right; exact Hin|exact Hf].
Qed.

Lemma last_opt_in : forall {A} (l : list A) e, last_opt l = Some e -> In e l.
Proof.
  induction l as [|a l IH]; intros e H; [discriminate|]. destruct l as [|b l'].
  - inversion H. left. reflexivity.
  - right. apply IH. exact H.
Qed.

Lemma check_none : forall t, check t = Ok None ->
  rule_boundary t = None /\ rule_bounds t = None /\ rule_branch t = None.
Proof.
  intros t H. unfold check in H. destruct (rule_boundary t); [discriminate|]. destruct (rule_bounds t); [discriminate|].
  destruct (rule_branch t); [discriminate|]. auto.
Qed.

Lemma rule_size_kind : forall t k sp, rule_size t = Ok (Some (k, sp)) -> k = OversizedInvariant.
Proof.
  intros t k sp. unfold rule_size. induction (bfs t) as [|x l IH]; intros H; [discriminate|]. cbn [rule_size_list] in H.
  destruct (size_variance x) as [v|]; [|discriminate]. cbn [rbind] in H. destruct v as [n|b]; [|exact (IH H)].
  destruct (MAX_INVARIANT_SIZE <=? n)%N; [inversion H; reflexivity|exact (IH H)].
Qed.

Lemma check_alternation_kind : forall tm o k, check_alternation tm o = Some k -> k = RootedSubGlob.
Proof. intros tm o k H. unfold check_alternation in H. destruct (_ && _); [injection H as <-; reflexivity|discriminate]. Qed.

Lemma check_some : forall t k sp, check t = Ok (Some (k, sp)) ->
  (k = AdjacentBoundary /\ rule_boundary t = Some (k, sp)) \/ k = IncompatibleBounds \/ rule_branch t = Some (k, sp) \/ k = OversizedInvariant.
Proof.
  intros t k sp H. unfold check in H. destruct (rule_boundary t) as [e|] eqn:Eb.
  - left. inversion H; subst e. split; [|reflexivity]. unfold rule_boundary in Eb. destruct (first_some_l _ (bfs t)); inversion Eb; reflexivity.
  - destruct (rule_bounds t) as [e|] eqn:Ebd.
    + right. left. inversion H; subst e. unfold rule_bounds in Ebd. destruct (find bad_bounds (bfs t)); inversion Ebd; reflexivity.
    + destruct (rule_branch t) as [e|]; [inversion H; auto|]. right. right. right. exact (rule_size_kind t k sp H).
Qed.

Lemma check_bounds : forall t, check t = Ok None -> Forall (fun x => bad_bounds x = false) (bfs t).
Proof.
  intros t H. destruct (check_none t H) as [_ [E _]]. unfold rule_bounds in E.
  destruct (find bad_bounds (bfs t)) eqn:F; [discriminate|]. apply Forall_forall. exact (find_none _ _ F).
Qed.

Lemma check_boundary :
  forall t, check t = Ok None ->
    Forall (fun x => match x with TCat _ ts => adjacent_boundary ts = None | _ => True end) (bfs t).
Proof.
  intros t H. destruct (check_none t H) as [E _]. unfold rule_boundary in E.
  match type of E with match ?x with _ => _ end = _ => destruct x eqn:F; [discriminate|] end.
  apply first_some_l_none in F. eapply Forall_impl; [|exact F].
  intros a Ha. destruct a; try exact I. exact Ha.
Qed.

Lemma adjacent_boundary_tail : forall x rest, adjacent_boundary (x :: rest) = None -> adjacent_boundary rest = None.
Proof.
  intros x [|y rest] H; [reflexivity|]. cbn [adjacent_boundary] in H.
  destruct (is_boundary x && is_boundary y); [discriminate|exact H].
Qed.

Lemma adjacent_boundary_none :
  forall l a b r, adjacent_boundary (l ++ a :: b :: r) = None -> is_boundary a && is_boundary b = false.
Proof.
  induction l as [|x l IH]; intros a b r H; cbn [app] in H.
  - cbn [adjacent_boundary] in H. destruct (_ && _); [discriminate|reflexivity].
  - apply adjacent_boundary_tail in H. eapply IH. exact H.
Qed.

Definition term_first (tm : terminals) : tok := match tm with TermOnly t => t | TermStartEnd s _ => s end.
Definition term_last (tm : terminals) : tok := match tm with TermOnly t => t | TermStartEnd _ e => e end.

Lemma terminals_of_ends : forall ts, ts <> [] ->
  exists tm rest, terminals_of ts = Some tm /\ ts = term_first tm :: rest /\ last_opt ts = Some (term_last tm).
Proof.
  intros [|s [|m rest]] H; [congruence|exists (TermOnly s), []; auto|]. cbn [terminals_of].
  change (last_opt (s :: m :: rest)) with (last_opt (m :: rest)). destruct (last_opt (m :: rest)) as [e|] eqn:E.
  - exists (TermStartEnd s e), (m :: rest). auto.
  - exfalso. clear - E. revert m E. induction rest as [|a rest IH]; intros m E; [discriminate|exact (IH a E)].
Qed.

Lemma boundary_sep_tree : forall t, is_boundary t = is_sep t || is_tree t.
Proof. intros [sp []| | |]; reflexivity. Qed.

Local Ltac crack H := repeat match type of H with (if ?c then _ else _) = None => let E := fresh "E" in destruct c eqn:E; [discriminate|] end.

Lemma check_branch_none : forall tm o, check_branch tm o = None ->
  (is_boundary (term_first tm) && has_ending_boundary (o_left o) = false /\
   is_boundary (term_last tm) && has_starting_boundary (o_right o) = false) /\
  (is_zom (term_first tm) && has_ending_zom (o_left o) = false /\
   is_zom (term_last tm) && has_starting_zom (o_right o) = false).
Proof.
  intros tm o H. unfold check_branch in H. rewrite !boundary_sep_tree, !andb_orb_distrib_l.
  destruct tm as [t|s e]; cbn [term_first term_last]; crack H; cbn [orb andb]; auto.
Qed.

Lemma check_repetition_none : forall tm o lo hi, check_branch tm o = None -> check_repetition tm o lo hi = None ->
  is_boundary (term_first tm) && is_boundary (term_last tm) = false.
Proof.
  intros tm o lo hi Hb Hr. unfold check_repetition in Hr. cbv zeta in Hr.
  match type of Hr with (if ?c then _ else _) = _ => destruct c; [discriminate|] end.
  destruct tm as [t|s e]; cbn [term_first term_last].
  - destruct (is_sep t) eqn:Es; [discriminate|]. unfold check_branch in Hb. rewrite Es in Hb. cbn [andb] in Hb.
    destruct (is_tree t) eqn:Et; [discriminate|]. rewrite boundary_sep_tree, Es, Et. reflexivity.
  - destruct (is_boundary s && is_boundary e); [discriminate|reflexivity].
Qed.

Lemma check_branch_some : forall tm o k, check_branch tm o = Some k ->
  match k with
  | AdjacentBoundary =>
      is_boundary (term_first tm) && has_ending_boundary (o_left o) = true \/ is_boundary (term_last tm) && has_starting_boundary (o_right o) = true
  | AdjacentZeroOrMore =>
      is_zom (term_first tm) && has_ending_zom (o_left o) = true \/ is_zom (term_last tm) && has_starting_zom (o_right o) = true
  | _ => True
  end.
Proof.
  intros tm o k H. unfold check_branch in H.
  destruct tm as [t|s e]; cbn [term_first term_last];
    repeat match type of H with (if ?c then _ else _) = _ =>
             let E := fresh "E" in destruct c eqn:E; [injection H as <-; rewrite ?boundary_sep_tree, ?andb_orb_distrib_l, ?E; auto with bool|]
           end; discriminate.
Qed.

(* C10: the depths [k] that a variance allows *)
Definition in_variance (k : N) (v : nvar) : Prop :=
  match v with
  | Inv n => k = n
  | Var Unbounded => True
  | Var (Bounded (BLower lo)) => lo <= k
  | Var (Bounded (BUpper hi)) => k <= hi
  | Var (Bounded (BBoth lo ext)) => lo <= k /\ k <= lo + ext
  end.

Lemma depth_single_leaf :
  forall sp l, depth_variance (TLeaf sp l) =
    match l with
    | LSep => Ok (Inv 0)
    | LTree _ => Ok (Var Unbounded)
    | _ => Ok (Inv 1)
    end.
Proof. intros sp l. destruct l; reflexivity. Qed.
