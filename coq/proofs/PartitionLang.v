(* PartitionLang.v -- C08 at the level of the documented language: the texts of a glob are the invariant text of the popped
   prefix followed by the texts of the postfix.  The prefix may be any run of tokens whose text is invariant (literals,
   separators, invariant alternations and repetitions); what follows it is insensitive to its position unless it begins with
   a tree wildcard, and a tree wildcard in that place gives up its leading separator.  `partition_shape` says what a partition
   that leaves a postfix looks like; PartitionIdem, PartitionSpans and PartitionRootRep start from it. *)
From WaxModel Require Import Base Token Spec Variance Fold Query Glob.
From WaxProofs Require Import AlgebraFacts SpecFacts EncodeLang TextFacts TextExists OwnedFacts EscapeFacts BuiltFacts BuiltNonempty PartitionFacts PartitionRoot.

(* some expansion may begin with a tree wildcard (conservative) *)
Fixpoint starts_tree (t : tok) : bool :=
  match t with
  | TLeaf _ (LTree _) => true
  | TLeaf _ _ => false
  | TAlt _ bs => existsb starts_tree bs
  | TCat _ ts => (fix go (ts : list tok) : bool := match ts with [] => false | t0 :: r => starts_tree t0 || (fnull t0 && go r) end) ts
  | TRep _ b _ _ => starts_tree b
  end.
Definition starts_tree_list (ts : list tok) : bool :=
  (fix go (ts : list tok) : bool := match ts with [] => false | t0 :: r => starts_tree t0 || (fnull t0 && go r) end) ts.

Section PartitionLang.
Variable orbit : char -> list char.
Variable has_casing : char -> bool.
Hypothesis caseless_orbit : forall c d, has_casing c = false -> In d (orbit c) -> d = c.
Notation FlatMatch := (Spec.FlatMatch orbit).
Notation Lang := (Spec.Lang orbit).
Notation Expands := Spec.Expands.

(* [Lang] with the flag that says whether the flat sequence starts the path: [LangF true] is [Lang] *)
Definition LangF (f : bool) (t : tok) (w : str) : Prop := exists x, Expands t x /\ FlatMatch f true x w.

Lemma flatmatch_nonnil : forall f l x w, FlatMatch f l x w -> w <> [] -> x <> [].
Proof. intros f l x w H Hw ->. inversion H; subst. congruence. Qed.

Lemma prefix_split : forall sp pre txt,
  text_fold has_casing (TCat sp pre) = Ok (Some (Inv txt)) ->
  nonempty_branches (TCat sp pre) = true -> classes_plain (TCat sp pre) = true -> text_to_string txt <> [] ->
  forall post w, Lang (TCat sp (pre ++ post)) w <-> exists v, w = text_to_string txt ++ v /\ LangF false (TCat sp post) v.
Proof.
  intros sp pre txt Ht Hne Hcl Hs post w. split.
  - intros [x [Hx Hm]]. apply (expands_cat_app sp sp sp) in Hx. destruct Hx as [xa [xb [-> [Ha Hb]]]].
    apply flatmatch_app in Hm. destruct Hm as [u [v [-> [Hu Hv]]]].
    assert (Eu : u = text_to_string txt) by (eapply (text_unique orbit has_casing caseless_orbit _ Hne txt Ht); eassumption).
    subst u. exists v. split; [reflexivity|]. exists xb. split; [exact Hb|].
    assert (Hxa : xa <> []) by (eapply flatmatch_nonnil; eassumption).
    destruct xa; [congruence|]. exact Hv.
  - intros [v [-> [xb [Hb Hv]]]]. destruct (text_matched orbit has_casing _ Hne Hcl txt Ht) as [xa [Ha Hm]].
    exists (xa ++ xb). split; [apply (expands_cat_app sp sp sp); exists xa, xb; auto|].
    apply flatmatch_app. exists (text_to_string txt), v. split; [reflexivity|]. split; [apply Hm|].
    assert (Hxa : xa <> []) by (eapply flatmatch_nonnil; [apply (Hm true true)|exact Hs]).
    destruct xa; [congruence|]. exact Hv.
Qed.

Lemma head_tree_concat : forall xs, Forall (fun x => head_tree x = false) xs -> head_tree (concat xs) = false.
Proof.
  induction xs as [|x xs IH]; intros H; [reflexivity|]. inversion H; subst. cbn [concat]. rewrite head_tree_app.
  destruct (is_nil x); [apply IH; assumption|assumption].
Qed.

Lemma expands_head_tree : forall t x, Expands t x -> starts_tree t = false -> head_tree x = false.
Proof.
  induction t as [sp l0|sp bs IH|sp ts IH|sp b lo hi IH] using tok_ind'; intros x Hx Hs.
  - inversion Hx; subst. destruct l0; try reflexivity. discriminate.
  - inversion Hx as [|sp0 bs0 b x0 Hin Hb| |]; subst. cbn [starts_tree] in Hs. rewrite Forall_forall in IH. apply (IH b Hin); [exact Hb|].
    destruct (starts_tree b) eqn:E; [|reflexivity]. exfalso. assert (existsb starts_tree bs = true) by (apply existsb_exists; exists b; auto). congruence.
  - inversion Hx as [| |sp0 ts0 xs HF|]; subst. change (starts_tree_list ts = false) in Hs. clear Hx.
    induction HF as [|t0 x0 ts' xs' Hx0 _ IHF]; [reflexivity|]. inversion IH as [|? ? IH0 IH']; subst.
    cbn [starts_tree_list] in Hs. apply orb_false_iff in Hs. destruct Hs as [H0 Hr]. cbn [concat]. rewrite head_tree_app.
    destruct x0 as [|a x0']; cbn [is_nil].
    + rewrite (expands_nil_fnull t0 Hx0) in Hr. cbn [andb] in Hr. apply IHF; assumption.
    + apply (IH0 _ Hx0 H0).
  - inversion Hx as [| | |sp0 b0 lo0 hi0 xs Hb HF]; subst. cbn [starts_tree] in Hs. apply head_tree_concat.
    eapply Forall_impl; [|exact HF]. intros a Ha. apply (IH _ Ha Hs).
Qed.

Lemma langF_flag : forall t f f' w, starts_tree t = false -> LangF f t w -> LangF f' t w.
Proof.
  intros t f f' w Hs [x [Hx Hm]]. exists x. split; [exact Hx|]. eapply flatmatch_first_irrelevant; [|exact Hm]. eapply expands_head_tree; eassumption.
Qed.

Lemma ends_sep_cons : forall c u, ends_sep (c :: u) = if is_nil u then N.eqb c SEP else ends_sep u.
Proof.
  intros c u. destruct u as [|d u']; [reflexivity|]. cbn [is_nil]. unfold ends_sep. cbn [rev].
  destruct (rev u' ++ [d]) as [|e r] eqn:E; [destruct (rev u'); discriminate|]. reflexivity.
Qed.

(* a tree wildcard that has no claim to the beginning of the path matches a piece with a leading separator as an unrooted first one matches the rest *)
Lemma tree_piece_sep_start : forall first last root u0, tree_piece first last root (SEP :: u0) = tree_piece true last false u0.
Proof.
  intros first last root u0. unfold tree_piece. cbn [starts_sep]. rewrite N.eqb_refl, ends_sep_cons.
  destruct first, root, last, (is_nil u0), (ends_sep u0); reflexivity.
Qed.

Lemma tree_piece_shape : forall first last root u, first && negb root = false -> tree_piece first last root u = true ->
  (exists u0, u = SEP :: u0) \/ (u = [] /\ last = true /\ first = false).
Proof.
  intros first last root u Hf H. unfold tree_piece in H. rewrite Hf in H. cbn [orb] in H. apply andb_prop in H. destruct H as [H _].
  apply orb_prop in H. destruct H as [H|H]; [left; apply starts_sep_iff; exact H|right].
  destruct u; [|rewrite andb_false_r in H; discriminate H]. destruct first, root, last; try discriminate H; try discriminate Hf; auto.
Qed.

(* [f] is false in the middle of the sequence (rooted or not: the flag only matters at the beginning), true with [root] at the
   very beginning *)
Lemma unroot_tree : forall f root l x v, f && negb root = false ->
  FlatMatch f l (LTree root :: x) v <->
  (exists r, v = SEP :: r /\ FlatMatch true l (LTree false :: x) r) \/ (f = false /\ l = true /\ x = [] /\ v = []).
Proof.
  intros f root l x v Hf. split.
  - intros H. inversion H as [|f0 l0 a x0 u v' Hp Hrest]; subst. cbn [leaf_piece] in Hp.
    destruct (tree_piece_shape _ _ _ _ Hf Hp) as [[u0 ->]|[-> [Hl ->]]].
    + left. exists (u0 ++ v'). split; [reflexivity|]. constructor; [|exact Hrest]. cbn [leaf_piece].
      rewrite <- (tree_piece_sep_start f _ root). exact Hp.
    + right. apply andb_prop in Hl. destruct Hl as [-> Hx]. destruct x; [|discriminate]. inversion Hrest; subst. auto.
  - intros [[r [-> H]]|[-> [-> [-> ->]]]].
    + inversion H as [|f0 l0 a x0 u v' Hp Hrest]; subst. change (SEP :: u ++ v') with ((SEP :: u) ++ v'). constructor; [|exact Hrest].
      cbn [leaf_piece] in *. rewrite tree_piece_sep_start. exact Hp.
    + change (@nil char) with (@nil char ++ []). constructor; [reflexivity|constructor].
Qed.

Lemma expands_tree_cons : forall sp s0 root rest x,
  Expands (TCat sp (TLeaf s0 (LTree root) :: rest)) x <-> exists xr, x = LTree root :: xr /\ Expands (TCat sp rest) xr.
Proof.
  intros sp s0 root rest x. rewrite expands_cat. split.
  - intros [xs [H ->]]. inversion H as [|? x0 ? xs' H0 Hr]; subst. inversion H0; subst. exists (concat xs'). split; [reflexivity|]. constructor. exact Hr.
  - intros [xr [-> Hr]]. apply expands_cat in Hr. destruct Hr as [xs' [Hr ->]]. exists ([LTree root] :: xs'). split; [|reflexivity].
    constructor; [constructor|exact Hr].
Qed.

Lemma langF_unroot : forall f sp s0 s1 root rest v, f && negb root = false ->
  LangF f (TCat sp (TLeaf s0 (LTree root) :: rest)) v <->
  (exists r, v = SEP :: r /\ Lang (TCat sp (TLeaf s1 (LTree false) :: rest)) r) \/ (f = false /\ v = [] /\ Expands (TCat sp rest) []).
Proof.
  intros f sp s0 s1 root rest v Hf. split.
  - intros [x [Hx Hm]]. apply expands_tree_cons in Hx. destruct Hx as [xr [-> Hr]]. apply (unroot_tree _ _ _ _ _ Hf) in Hm.
    destruct Hm as [[r [-> Hm]]|[-> [_ [-> ->]]]].
    + left. exists r. split; [reflexivity|]. exists (LTree false :: xr). split; [|exact Hm]. apply expands_tree_cons. eauto.
    + right. auto.
  - intros [[r [-> [x [Hx Hm]]]]|[-> [-> Hr]]].
    + apply expands_tree_cons in Hx. destruct Hx as [xr [-> Hr]]. exists (LTree root :: xr). split; [apply expands_tree_cons; eauto|].
      apply (unroot_tree _ _ _ _ _ Hf). left. eauto.
    + exists [LTree root]. split; [apply expands_tree_cons; eauto|]. apply (unroot_tree _ _ _ _ _ Hf). right. auto.
Qed.

Lemma lang_unroot_start : forall sp s0 s1 rest w,
  Lang (TCat sp (TLeaf s0 (LTree true) :: rest)) w <-> exists r, w = SEP :: r /\ Lang (TCat sp (TLeaf s1 (LTree false) :: rest)) r.
Proof.
  intros sp s0 s1 rest w. destruct (langF_unroot true sp s0 s1 true rest w eq_refl) as [H1 H2]. split.
  - intros H. destruct (H1 H) as [Hr|[Hf _]]; [exact Hr|discriminate Hf].
  - intros H. apply H2. left. exact H.
Qed.

Notation inv_run := (inv_run has_casing).

Lemma rmapM_forall2_ok : forall {A B} (f : A -> res B) l rs, Forall2 (fun a r => f a = Ok r) l rs -> rmapM f l = Ok rs.
Proof. intros A B f l rs H. induction H as [|a r l rs Ha _ IH]; [reflexivity|]. cbn [rmapM]. rewrite Ha, IH. reflexivity. Qed.

Lemma inv_run_folds : forall pre txts, inv_run pre txts -> forallb nonempty_branches pre = true ->
  rmapM (text_fold has_casing) pre = Ok (map (fun x => Some (Inv x)) txts).
Proof.
  intros pre txts Hrun Hne. apply rmapM_forall2_ok. apply forallb_Forall in Hne.
  induction Hrun as [|t x pre' txts' Ht _ IH]; [constructor|]. inversion Hne; subst. constructor; [apply text_variance_fold; assumption|apply IH; assumption].
Qed.

Lemma inv_run_fold : forall sp pre txts, inv_run pre txts -> forallb nonempty_branches pre = true -> pre <> [] ->
  exists txt, text_fold has_casing (TCat sp pre) = Ok (Some (Inv txt)) /\ text_to_string txt = strs txts.
Proof.
  intros sp pre txts Hrun Hne Hnil.
  cbn [text_fold]. rewrite (inv_run_folds pre txts Hrun Hne). cbn [rbind]. rewrite opt_list_map_some.
  destruct txts as [|x xs]; [inversion Hrun; subst; congruence|]. cbn [map reduce_pure].
  destruct (fold_conj_texts xs x) as [a' [E Hs]]. exists a'. split; [do 2 f_equal; exact E|exact Hs].
Qed.

(* convertible with [tok_bounds_ok (TCat sp l)]: a glob that builds meets it by [built_bounds_ok] *)
Definition bounds_list (l : list tok) : Prop :=
  (fix go (l : list tok) : Prop := match l with [] => True | x :: l' => tok_bounds_ok x /\ go l' end) l.

Lemma unroot_leaf_tree : forall t, is_tree t = true ->
  exists s0 root s1, t = TLeaf s0 (LTree root) /\ fst (unroot t) = TLeaf s1 (LTree false).
Proof.
  intros [sp l| | |]; try discriminate. destruct l; try discriminate. intros _. exists sp, root.
  destruct root, sp; eexists; split; reflexivity.
Qed.

Lemma unroot_other : forall t, starts_tree t = false -> fst (unroot t) = t.
Proof. intros t H. destruct (unroot_cases t) as [->|(s & n & -> & _)]; [reflexivity|discriminate H]. Qed.

(* the postfix is annotated relative to the bytes that were dropped *)
Definition shift (off : N) (s : span) : span := ((fst s - off)%N, snd s).

Lemma partition_shape : forall e sp ts text post e',
  bounds_list ts -> partition has_casing e (TCat sp ts) = Ok (PartSome text post e') ->
  exists pre first rest, ts = pre ++ first :: rest /\
    invariant_text_prefix has_casing (TCat sp ts) = Ok (N.of_nat (length pre), text) /\
    post = respan (shift (sum_spans pre + snd (unroot first))) (TCat sp (fst (unroot first) :: rest)) /\
    drop_bytes e (sum_spans pre + snd (unroot first))%N = Some e'.
Proof.
  intros e sp ts text post e' Hb H. unfold partition in H.
  destruct (invariant_text_prefix has_casing (TCat sp ts)) as [[n text0]|] eqn:Ei; [|discriminate]. cbn [rbind] in H.
  destruct (N.leb_spec (N.of_nat (length ts)) n) as [Hle|Hlt]; [discriminate|].
  destruct (skipn (N.to_nat n) ts) as [|first rest] eqn:Es; [discriminate|].
  exists (firstn (N.to_nat n) ts), first, rest. rewrite <- Es, firstn_skipn, firstn_length_le, N2Nat.id by lia. split; [reflexivity|].
  rewrite <- (firstn_skipn (N.to_nat n) ts), Es in Hb. apply (postfix_bounds_ok sp) in Hb.
  destruct (unroot first) as [first' u]. cbn [fst snd] in *. rewrite (fold_map_respan _ _ Hb) in H. cbn [rbind] in H.
  destruct (drop_bytes e _) as [e''|]; [|discriminate]. inversion H; subst. auto.
Qed.

(* C08, nothing popped: the glob has no invariant prefix (the postfix is the glob) or begins with a rooted tree wildcard
   (the prefix is the root and the wildcard gives up its separator) *)
Theorem built_partition_no_prefix : forall e sp ts r text post e',
  build e = BuildOk (TCat sp ts) r -> invariant_text_prefix has_casing (TCat sp ts) = Ok (0%N, text) ->
  partition has_casing e (TCat sp ts) = Ok (PartSome text post e') ->
  forall w, Lang (TCat sp ts) w <->
    match ts with
    | TLeaf _ (LTree true) :: _ => exists r, w = SEP :: r /\ Lang post r
    | _ => Lang post w
    end.
Proof.
  intros e sp ts r0 text post e' Hb0 Hi H w. pose proof (built_bounds_ok _ _ _ Hb0 : bounds_list ts) as Hb.
  destruct (partition_shape _ _ _ _ _ _ Hb H) as [pre [first [rest [-> [Hi' [-> _]]]]]].
  rewrite Hi in Hi'. destruct pre; [|discriminate]. cbn [app].
  destruct first as [s0 l0|s0 bs|s0 cs|s0 b lo hi]; cbn [unroot fst]; try (rewrite lang_respan; reflexivity).
  destruct s0 as [a b]. destruct l0; cbn [fst]; try (rewrite lang_respan; reflexivity). destruct root; cbn [fst]; [|rewrite lang_respan; reflexivity].
  rewrite (lang_unroot_start sp (a, b) (a + 1, b - 1)%N rest w). split; intros [r [-> Hr]]; exists r; (split; [reflexivity|]); [exact (proj2 (lang_respan orbit _ _ r) Hr)|exact (proj1 (lang_respan orbit _ _ r) Hr)].
Qed.

(* C08, a prefix was popped *)
Theorem built_partition_prefix : forall e sp ts r n text post e',
  build e = BuildOk (TCat sp ts) r -> classes_plain (TCat sp ts) = true ->
  invariant_text_prefix has_casing (TCat sp ts) = Ok (n, text) -> (0 < n)%N -> text <> [] ->
  partition has_casing e (TCat sp ts) = Ok (PartSome text post e') ->
  forall first rest, skipn (N.to_nat n) ts = first :: rest ->
    (starts_tree_list (first :: rest) = false -> forall w, Lang (TCat sp ts) w <-> exists r, w = text ++ r /\ Lang post r) /\
    (* a tree wildcard follows the prefix: it gives up its separator; if nothing need follow it, the prefix alone is matched too *)
    (is_tree first = true -> forall w, Lang (TCat sp ts) w <->
       (exists r, w = text ++ SEP :: r /\ Lang post r) \/ (w = text /\ Expands (TCat sp rest) [])).
Proof.
  intros e sp ts r0 n text post e' Hb0 Hcl Hi Hn Htext H first rest Hs.
  pose proof (built_bounds_ok _ _ _ Hb0 : bounds_list ts) as Hb. pose proof (built_nonempty_branches _ _ _ Hb0) as Hne.
  destruct (partition_shape _ _ _ _ _ _ Hb H) as [pre [first' [rest' [-> [Hi' [-> _]]]]]].
  rewrite Hi in Hi'. injection Hi' as ->. rewrite Nat2N.id, skipn_len_app in Hs. injection Hs as -> ->.
  destruct (itp_cut has_casing _ _ _ _ Hi) as [[-> _]|[txts [Ht [Hrun _]]]]; [cbn in Hn; lia|].
  assert (Hpre : pre <> []) by (intros ->; cbn in Hn; lia).
  cbn [nonempty_branches classes_plain] in Hne, Hcl. apply andb_prop in Hne. destruct Hne as [_ Hne].
  rewrite forallb_app in Hne, Hcl. apply andb_prop in Hne, Hcl.
  destruct (inv_run_fold sp pre txts Hrun (proj1 Hne) Hpre) as [txt [Hfold Hstr]].
  assert (Hne' : nonempty_branches (TCat sp pre) = true).
  { cbn [nonempty_branches]. rewrite (proj1 Hne). destruct pre; [congruence|reflexivity]. }
  assert (Hsplit := prefix_split sp pre txt Hfold Hne' (proj1 Hcl)).
  rewrite Hstr, <- Ht in Hsplit. specialize (Hsplit Htext (first :: rest)).
  split.
  - intros Hst w. rewrite Hsplit. change (starts_tree (TCat sp (first :: rest)) = false) in Hst.
    rewrite (unroot_other first) by (cbn [starts_tree] in Hst; apply orb_false_iff in Hst; apply Hst).
    split; intros [v [-> Hv]]; exists v; (split; [reflexivity|]).
    + apply lang_respan. apply (langF_flag _ false true _ Hst). exact Hv.
    + apply (langF_flag _ true false _ Hst). exact (proj1 (lang_respan orbit _ _ v) Hv).
  - intros Htree w. rewrite Hsplit. destruct (unroot_leaf_tree first Htree) as (s0 & root & s1 & -> & ->).
    split.
    + intros [v [-> Hv]]. apply (langF_unroot false sp s0 s1) in Hv; [|reflexivity]. destruct Hv as [[r [-> Hr]]|[_ [-> Hr]]].
      * left. exists r. split; [reflexivity|]. apply lang_respan. exact Hr.
      * right. rewrite app_nil_r. auto.
    + intros [[r [-> Hr]]|[-> Hr]].
      * exists (SEP :: r). split; [reflexivity|]. apply (langF_unroot false sp s0 s1); [reflexivity|]. left. exists r. split; [reflexivity|]. exact (proj1 (lang_respan orbit _ _ r) Hr).
      * exists []. split; [rewrite app_nil_r; reflexivity|]. apply (langF_unroot false sp s0 s1); [reflexivity|]. right. auto.
Qed.

End PartitionLang.

Definition ex1 : str := [97; 47; 42; 42; 47; 98]%N.        (* a/**/b *)
Definition ex2 : str := [97; 47; 98; 47; 42; 46; 99]%N.    (* a/b/*.c *)

(* the premises are satisfiable: `a/**/b` (a tree wildcard follows the prefix `a`) and `a/b/*.c` (the prefix `a/b/` ends at a separator) *)
Example partition_prefix_tree_nonvacuous :
  exists sp ts r post e' first rest,
    build ex1 = BuildOk (TCat sp ts) r /\ classes_plain (TCat sp ts) = true /\
    invariant_text_prefix (fun _ => false) (TCat sp ts) = Ok (1%N, [97%N]) /\
    partition (fun _ => false) ex1 (TCat sp ts) = Ok (PartSome [97%N] post e') /\
    skipn 1 ts = first :: rest /\ is_tree first = true.
Proof. do 7 eexists. repeat (split; [vm_compute; reflexivity|]); vm_compute; reflexivity. Qed.

Example partition_prefix_sep_nonvacuous :
  exists sp ts r post e' first rest,
    build ex2 = BuildOk (TCat sp ts) r /\ classes_plain (TCat sp ts) = true /\
    invariant_text_prefix (fun _ => false) (TCat sp ts) = Ok (4%N, [97; 47; 98; 47]%N) /\
    partition (fun _ => false) ex2 (TCat sp ts) = Ok (PartSome [97; 47; 98; 47]%N post e') /\
    skipn 4 ts = first :: rest /\ starts_tree_list (first :: rest) = false.
Proof. do 7 eexists. repeat (split; [vm_compute; reflexivity|]); vm_compute; reflexivity. Qed.
