(* RuleZomRep.v -- C06 with repetitions, second rule: if the check passes, no expansion of the tree has two adjacent zero-or-more
   wildcards, for trees of the class of RuleAdjRep whose repetition bodies do not both begin and end with a zero-or-more wildcard (the
   rule checker does not compare the two ends of a body for this rule: `<*a*:2>` builds).  Then both rules on built globs: [rep_class]
   states the class of RuleAdjRep without the shape that every parsed tree has ([sh_shr]). *)
From WaxModel Require Import Base Token Spec Rule Glob.
From WaxProofs Require Import SpecFacts ParseRel RuleFacts FuelFacts DepthTreeFacts DepthAltFacts ZomFacts BuiltNonempty AdjacencyFacts RuleAdjFacts ParseShape RuleZomFacts RuleAdjRep.
Local Open Scope nat_scope.

Lemma ends_z_sound_r : forall t, nonempty_branches t = true -> shr t = true -> ends_z t = false ->
  forall x, Expands t x -> lz x = false.
Proof. intros t Hn Hs. exact (ends_sound is_zom is_zl is_zom_lift t (shr_solid t Hn Hs)). Qed.

(* the copies of a body meet at its leaf terminals, which the class keeps from both being zero-or-more wildcards *)
Definition zwrap_ok (b : tok) : bool :=
  match concatenation b with
  | m :: rest => negb (is_zom m && match last_opt (m :: rest) with Some e => is_zom e | None => false end)
  | [] => true
  end.

Fixpoint shz (t : tok) : bool :=
  match t with
  | TLeaf _ _ => true
  | TAlt _ bs => forallb shz bs
  | TCat _ ts => forallb shz ts
  | TRep _ b _ _ => zwrap_ok b && shz b
  end.

Lemma shz_child : forall t c, shz t = true -> In c (children t) -> shz c = true.
Proof.
  intros [sp l|sp bs|sp ts|sp b lo hi] c H Hin; cbn [children shz] in *; [contradiction| | |].
  - rewrite forallb_forall in H. exact (H c Hin).
  - rewrite forallb_forall in H. exact (H c Hin).
  - destruct Hin as [<-|[]]. apply andb_prop in H. exact (proj2 H).
Qed.

Lemma rep_free_shz : forall t, rep_free t = true -> shz t = true.
Proof. apply rep_free_class; reflexivity. Qed.

Lemma rep_wrap_z : forall b, leaf_ends b = true -> zwrap_ok b = true ->
  forall y y', Expands b y -> Expands b y' -> glast is_zl y && gfirst is_zl y' = false.
Proof.
  intros b Hle Hw y y' Hy Hy'. destruct (leaf_ends_inv b Hle) as [s1 [l1 [rest [se [le [Ec El]]]]]].
  rewrite (last_member_last is_zl b se le y El Hy), (first_member_first is_zl b s1 l1 rest y' Ec Hy').
  unfold zwrap_ok in Hw. rewrite Ec in Hw, El. rewrite El, !is_zom_lift in Hw. apply negb_true_iff in Hw. rewrite andb_comm. exact Hw.
Qed.

Lemma shz_reps_wrap : forall t, shr t = true -> shz t = true -> reps_wrap is_zl t.
Proof.
  intros t Hs Hz sp b lo hi Hsub o l r _.
  pose proof (sub_closed (fun c => shr c = true) shr_child _ _ Hsub Hs) as Hc. destruct (rep_parts _ _ _ _ Hc) as [_ [_ [_ Hle]]].
  pose proof (sub_closed (fun c => shz c = true) shz_child _ _ Hsub Hz) as Hw. cbn [shz] in Hw. apply andb_prop in Hw.
  exact (rep_wrap_z b Hle (proj1 Hw)).
Qed.

Theorem check_no_adjacent_zoms_r : forall t, check t = Ok None -> zom_ok t = true -> shr t = true -> shz t = true -> nonempty_branches t = true ->
  forall x, Expands t x -> zchain false x = true.
Proof.
  intros t Hck Hzo Hs Hz Hn x Hx.
  destruct (item_claims is_zom is_zl is_zom_lift (fun tm o H => proj2 (check_branch_none tm o H)) t (shr_solid t Hn Hs) (shr_flat t Hs)
              (zcats_ok_apart t (zom_ok_cats t Hzo)) (shz_reps_wrap t Hs Hz)) as [H _].
  exact (proj1 (H outer_default (check_item_ok t Hck) x Hx)).
Qed.

(* the class on built globs: every repetition is written out at least once and its body begins and ends with a leaf *)
Fixpoint rep_class (t : tok) : bool :=
  match t with
  | TLeaf _ _ => true
  | TAlt _ bs => forallb rep_class bs
  | TCat _ ts => forallb rep_class ts
  | TRep _ b lo _ => (1 <=? lo)%N && leaf_ends b && rep_class b
  end.

Lemma rep_free_rep_class : forall t, rep_free t = true -> rep_class t = true.
Proof. apply rep_free_class; reflexivity. Qed.

Lemma sh_shr : forall t, sh t -> rep_class t = true -> shr t = true.
Proof.
  induction t as [sp l|sp bs IH|sp ts IH|sp b lo hi IH] using tok_ind'; intros Hs Hr; try reflexivity; cbn [sh shr rep_class] in *.
  - exact (all_sh_shp true is_cat rep_class shr bs (fun x H => H) IH Hs Hr).
  - exact (all_sh_shp false (fun m => negb (is_cat m)) rep_class shr ts (fun x H => f_equal negb H) IH Hs Hr).
  - destruct Hs as [Hc Hsb]. apply andb_prop in Hr. destruct Hr as [Hr Hrb]. apply andb_prop in Hr. destruct Hr as [Hlo Hle].
    rewrite Hc, (IH Hsb Hrb), Hlo, Hle. reflexivity.
Qed.

Theorem built_no_adjacent_boundaries_r : forall e t r, build e = BuildOk t r -> rep_class t = true ->
  forall x, Expands t x -> chain_ok false x = true.
Proof.
  intros e t r Hb Hr x Hx. destruct (build_ok_inv e t r Hb) as [Ep [Ec _]].
  apply (check_no_adjacent_boundaries_r t Ec (sh_shr t (parse_sh e t Ep) Hr) (built_nonempty_branches e t r Hb) x Hx).
Qed.

Theorem built_no_adjacent_zoms_r : forall e t r, build e = BuildOk t r -> rep_class t = true -> shz t = true ->
  forall x, Expands t x -> zchain false x = true.
Proof.
  intros e t r Hb Hr Hz x Hx. destruct (build_ok_inv e t r Hb) as [Ep [Ec _]].
  apply (check_no_adjacent_zoms_r t Ec (parse_no_adjacent_zom e t Ep) (sh_shr t (parse_sh e t Ep) Hr) Hz (built_nonempty_branches e t r Hb) x Hx).
Qed.

Corollary built_no_adjacent_zoms : forall e t r, build e = BuildOk t r -> rep_free t = true ->
  forall x, Expands t x -> zchain false x = true.
Proof. intros e t r Hb Hr. exact (built_no_adjacent_zoms_r e t r Hb (rep_free_rep_class t Hr) (rep_free_shz t Hr)). Qed.

Lemma no_trailing_sep_r : forall t, nonempty_branches t = true -> shr t = true -> may_end_sep t = false ->
  forall x, Expands t x -> last_opt x <> Some LSep.
Proof. intros t Hn Hs. exact (no_trailing_sep_solid t (shr_solid t Hn Hs)). Qed.
