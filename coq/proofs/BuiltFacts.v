(* BuiltFacts.v -- facts about every glob that builds (parse, then the rule checker): the bounds of every repetition, at
   every depth, are below 2^64 and ordered; hence re-annotating / re-owning the tree (fold_map) cannot fail and changes
   spans only, and combinators of built globs are constructed without panicking (C05, C19). *)
From WaxModel Require Import Base Token Rule Parse Query Glob.
From WaxProofs Require Import ParseRel AlgebraFacts OwnedFacts FuelFacts.

(* every bound the parser reads is a usize (the lower one too: [bounds_ok] asks it of both) *)
Definition small_bounds (lo : N) (hi : option N) : Prop :=
  lo < usize_max1 /\ match hi with Some h => h < usize_max1 | None => True end.

Lemma parse_usize_small : forall d n, parse_usize d = Some n -> n < usize_max1.
Proof.
  intros d n H. unfold parse_usize in H. match type of H with (if ?c then _ else _) = _ => destruct c eqn:E end; [|discriminate].
  inversion H; subst. apply N.ltb_lt. exact E.
Qed.

Lemma p_bounds_small : forall i lo hi i', p_bounds i = ((lo, hi), i') -> small_bounds lo hi.
Proof.
  intros i lo hi i' H. apply p_bounds_inv in H.
  destruct H as [(-> & -> & _)|(r & _ & [(-> & -> & _)|(d & c & Hlo & Hhi & _)])].
  - split; [unfold usize_max1; lia|exact I].
  - split; [unfold usize_max1; lia|exact I].
  - split; [exact (parse_usize_small d lo Hlo)|]. destruct Hhi as [->|(d2 & h & Hh & ->)]; [exact I|exact (parse_usize_small d2 h Hh)].
Qed.

Lemma bounds_ok_of : forall sp b lo hi, small_bounds lo hi -> bad_bounds (TRep sp b lo hi) = false -> bounds_ok lo hi.
Proof.
  intros sp b lo hi [Hlo Hhi] Hb. unfold bounds_ok. split; [exact Hlo|]. destruct hi as [h|]; [|exact I].
  cbn [bad_bounds] in Hb. apply orb_false_iff in Hb. destruct Hb as [Hlt _]. apply N.ltb_ge in Hlt. split; assumption.
Qed.

Lemma sub_in_children : forall (P : tok -> Prop) t, (forall x, sub x t -> P x) -> Forall (fun c => forall x, sub x c -> P x) (children t).
Proof. intros P t H. apply Forall_forall. intros c Hin x Hx. apply H. eapply sub_child; eassumption. Qed.

Theorem parse_bounds_ok : forall e t, parse e = ParseOk t -> (forall x, sub x t -> bad_bounds x = false) -> tok_bounds_ok t.
Proof.
  apply (parse_tree_inv (fun t => (forall x, sub x t -> bad_bounds x = false) -> tok_bounds_ok t)).
  - intros tm i l i' _ _. exact I.
  - intros sp b lo hi i1 i2 _ IH Hbd Hsub. apply tok_bounds_ok_rep. split.
    + apply IH. exact (Forall_inv (sub_in_children _ _ Hsub)).
    + eapply bounds_ok_of; [eapply p_bounds_small; exact Hbd|apply Hsub, sub_refl].
  - intros sp bs _ _ IH Hsub. apply tok_bounds_ok_alt, (Forall_mp _ _ _ IH). exact (sub_in_children _ _ Hsub).
  - intros tm i ts i' sp _ _ _ IH Hsub. apply tok_bounds_ok_cat, (Forall_mp _ _ _ IH). exact (sub_in_children _ _ Hsub).
  - intros _. exact I.
Qed.

Theorem built_bounds_ok : forall e t r, build e = BuildOk t r -> tok_bounds_ok t.
Proof.
  intros e t r H. destruct (build_ok_inv _ _ _ H) as (Ep & Ec & _).
  apply (parse_bounds_ok e t Ep). apply built_bounds_everywhere. exact Ec.
Qed.

(* C19: re-annotating (re-owning) a built glob cannot fail and only changes annotations *)
Theorem built_fold_map : forall e t r f, build e = BuildOk t r -> fold_map f t = Ok (respan f t).
Proof. intros e t r f H. apply fold_map_respan. eapply built_bounds_ok. exact H. Qed.

(* C05: a combinator of built globs is constructed without panicking, whatever the globs *)
Theorem built_any_total : forall ts, Forall (fun t => exists e r, build e = BuildOk t r) ts ->
  any_tree ts = Ok (TAlt (0, 0) (map (respan (fun _ => (0, 0))) ts)).
Proof.
  intros ts H. (* [any_tree ts] is [fold_map] of the alternation of [ts] *)
  apply (fold_map_respan (fun _ => (0, 0)) (TAlt (0, 0) ts)), tok_bounds_ok_alt.
  eapply Forall_impl; [|exact H]. intros t (e & r & Hb). exact (built_bounds_ok e t r Hb).
Qed.
