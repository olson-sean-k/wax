(* OwnedFacts.v -- C19: conversions that rebuild the token tree (into_owned, clone, the `any` combinator: Token::fold_map)
   change nothing but the annotations ([fold_map_respan]), and the compiled program, the depth and text variances and
   [has_root] do not look at an annotation ([encode_respan], [depth_variance_respan], [text_variance_respan],
   [has_root_respan]).  Nothing is proved here of the size variance, of exhaustiveness or of captures; the rule checker does
   read annotations (the spans of its errors). *)
From WaxModel Require Import Base Token Spec Encode Variance Fold Query.
From WaxProofs Require Import EncodeFacts AlgebraFacts AlgebraClosure.

(* Token.unannotate of the model is [respan (fun _ => (0, 0))]; the statements about `any` are written with [respan] *)
Fixpoint respan (f : span -> span) (t : tok) : tok :=
  match t with
  | TLeaf sp l => TLeaf (f sp) l
  | TAlt sp bs => TAlt (f sp) (map (respan f) bs)
  | TCat sp ts => TCat (f sp) (map (respan f) ts)
  | TRep sp b lo hi => TRep (f sp) (respan f b) lo hi
  end.

Lemma respan_id : forall g t, (forall sp, g sp = sp) -> respan g t = t.
Proof.
  intros g t Hg. induction t as [sp l|sp bs IH|sp ts IH|sp b lo hi IH] using tok_ind'; cbn [respan]; rewrite Hg.
  - reflexivity.
  - f_equal. rewrite <- (map_id bs) at 2. apply map_ext_Forall. exact IH.
  - f_equal. rewrite <- (map_id ts) at 2. apply map_ext_Forall. exact IH.
  - rewrite IH. reflexivity.
Qed.

Lemma rmapM_map_ok : forall {A B} (F : A -> res B) (g : A -> B) l, Forall (fun a => F a = Ok (g a)) l -> rmapM F l = Ok (map g l).
Proof. intros A B F g l H. induction H as [|a l Ha _ IH]; [reflexivity|]. cbn [rmapM map]. rewrite Ha, IH. reflexivity. Qed.

(* the bounds of a repetition survive the detour of fold_map through NaturalRange: ordered bounds are kept as they are
   ([fco_sorted]), and an upper bound that fits a usize is read back without overflow *)
Lemma rep_roundtrip_id : forall lo hi, bounds_ok lo hi -> rep_roundtrip lo hi = Ok (lo, hi).
Proof.
  intros lo hi [_ Hhi]. unfold rep_roundtrip, rep_range.
  destruct (fco_sorted lo hi) as [L U]; [destruct hi; [apply Hhi|exact I]|].
  destruct (nr_upper_ok (from_closed_open lo hi)) as [u [-> Eu]]; [rewrite U; destruct hi; [apply Hhi|exact I]|].
  cbn [rbind]. rewrite nr_lower_view, L, Eu, U. reflexivity.
Qed.

(* C19: fold_map changes nothing but the annotations *)
Lemma fold_map_respan : forall f t, tok_bounds_ok t -> fold_map f t = Ok (respan f t).
Proof.
  intros f. induction t as [sp l|sp bs IH|sp ts IH|sp b lo hi IH] using tok_ind'; intros Hb; cbn [fold_map respan].
  - reflexivity.
  - apply tok_bounds_ok_alt in Hb. rewrite (rmapM_map_ok _ _ bs (Forall_mp _ _ _ IH Hb)). reflexivity.
  - apply tok_bounds_ok_cat in Hb. rewrite (rmapM_map_ok _ _ ts (Forall_mp _ _ _ IH Hb)). reflexivity.
  - destruct Hb as [Hb Hbo]. rewrite (IH Hb). cbn [rbind]. rewrite (rep_roundtrip_id lo hi Hbo). reflexivity.
Qed.

Lemma enc_tok_respan : forall f t cap s e, enc_tok cap (respan f t) s e = enc_tok cap t s e.
Proof.
  intros f. induction t as [sp l|sp bs IH|sp ts IH|sp b lo hi IH] using tok_ind'; intros cap s e; cbn [respan enc_tok].
  - reflexivity.
  - f_equal. f_equal. rewrite map_map. apply map_ext_Forall.
    eapply Forall_impl; [|exact IH]. intros a Ha. cbn beta. rewrite Ha. reflexivity.
  - unfold seq_edges. rewrite map_map. apply (seq_edges_aux_rel eq); [reflexivity|intros; subst; reflexivity|].
    induction IH as [|a l Ha _ IHl]; constructor; [intros s' e'; apply Ha|exact IHl].
  - destruct (norm_bounds lo hi). rewrite IH. reflexivity.
Qed.

Lemma encode_respan : forall f t, encode (respan f t) = encode t.
Proof. intros. unfold encode. apply enc_tok_respan. Qed.

Lemma rmapM_ext_forall : forall {A B} (g h : A -> res B) l, Forall (fun a => g a = h a) l -> rmapM g l = rmapM h l.
Proof. intros A B g h l H. induction H as [|a l Ha _ IH]; [reflexivity|]. cbn [rmapM]. rewrite Ha, IH. reflexivity. Qed.

Lemma rmapM_map_ext : forall {A B} (F : A -> res B) (g : A -> A) l, Forall (fun a => F (g a) = F a) l -> rmapM F (map g l) = rmapM F l.
Proof. intros A B F g l H. induction H as [|a l Ha _ IH]; [reflexivity|]. cbn [map rmapM]. rewrite Ha, IH. reflexivity. Qed.

Lemma depth_fold_respan : forall f t, depth_fold (respan f t) = depth_fold t.
Proof.
  intros f. induction t as [sp l|sp bs IH|sp ts IH|sp b lo hi IH] using tok_ind'; cbn [respan depth_fold].
  - reflexivity.
  - rewrite (rmapM_map_ext _ _ bs IH). reflexivity.
  - rewrite (rmapM_map_ext _ _ ts IH). reflexivity.
  - rewrite IH. reflexivity.
Qed.

Lemma text_fold_respan : forall hc f t, text_fold hc (respan f t) = text_fold hc t.
Proof.
  intros hc f. induction t as [sp l|sp bs IH|sp ts IH|sp b lo hi IH] using tok_ind'; cbn [respan text_fold].
  - reflexivity.
  - rewrite (rmapM_map_ext _ _ bs IH). reflexivity.
  - rewrite (rmapM_map_ext _ _ ts IH). reflexivity.
  - rewrite IH. reflexivity.
Qed.

Lemma has_root_fold_respan : forall f t, has_root_fold (respan f t) = has_root_fold t.
Proof.
  intros f. induction t as [sp l|sp bs IH|sp ts IH|sp b lo hi IH] using tok_ind'.
  - reflexivity.
  - cbn [respan has_root_fold]. f_equal. induction IH as [|a l Ha _ IHl]; [reflexivity|]. cbn [map flat_map]. rewrite Ha, IHl. reflexivity.
  - cbn [respan has_root_fold]. destruct ts as [|t0 ts']; [reflexivity|]. cbn [map]. inversion IH as [|? ? H0 _]; subst. rewrite H0. reflexivity.
  - cbn [respan has_root_fold]. rewrite IH. reflexivity.
Qed.

Lemma has_root_respan : forall f t, has_root (respan f t) = has_root t.
Proof. intros. unfold has_root. rewrite has_root_fold_respan. reflexivity. Qed.

Lemma depth_variance_respan : forall f t, depth_variance (respan f t) = depth_variance t.
Proof. intros. unfold depth_variance. rewrite depth_fold_respan. reflexivity. Qed.

Lemma text_variance_respan : forall hc f t, text_variance hc (respan f t) = text_variance hc t.
Proof. intros. unfold text_variance. rewrite text_fold_respan. reflexivity. Qed.

(* C19: a glob passed through a combinator matches what it matched before *)
Theorem any_of_one : forall orbit t w, tok_bounds_ok t ->
  exists a, any_tree [t] = Ok a /\ (Regex.sem orbit (encode a) w <-> Regex.sem orbit (encode t) w).
Proof.
  intros orbit t w Hb. unfold any_tree. cbn [rmapM rbind]. rewrite (fold_map_respan _ t Hb). cbn [rbind].
  eexists. split; [reflexivity|]. rewrite (any_is_union orbit (0, 0) [respan (fun _ => (0, 0)) t] w) by discriminate. split.
  - intros [x [[<-|[]] H]]. rewrite encode_respan in H. exact H.
  - intros H. exists (respan (fun _ => (0, 0)) t). split; [left; reflexivity|]. rewrite encode_respan. exact H.
Qed.

Lemma tspan_respan : forall g t, tspan (respan g t) = g (tspan t).
Proof. intros g [| | |]; reflexivity. Qed.

Lemma is_boundary_respan : forall g t, is_boundary (respan g t) = is_boundary t.
Proof. intros g [sp l| | |]; reflexivity. Qed.

Lemma expands_respan : forall f t x, Expands (respan f t) x <-> Expands t x.
Proof.
  intros f t. induction t as [sp l|sp bs IH|sp ts IH|sp b lo hi IH] using tok_ind'; intros x; cbn [respan].
  - split; intros H; inversion H; constructor.
  - rewrite Forall_forall in IH. split; intros H; inversion H as [|? ? b x0 Hin Hb| |]; subst.
    + apply in_map_iff in Hin as [b0 [<- Hin0]]. exact (E_alt sp bs b0 x Hin0 (proj1 (IH b0 Hin0 x) Hb)).
    + exact (E_alt (f sp) _ (respan f b) x (in_map _ _ _ Hin) (proj2 (IH b Hin x) Hb)).
  - assert (HF : forall xs, Forall2 Expands (map (respan f) ts) xs <-> Forall2 Expands ts xs).
    { induction IH as [|t ts Ht _ IHts]; intros xs; cbn [map].
      - split; intros H; inversion H; constructor.
      - split; intros H; inversion H; subst; constructor; try (apply Ht; assumption); apply IHts; assumption. }
    split; intros H; inversion H; subst; constructor; apply HF; assumption.
  - assert (HF : forall xs, Forall (Expands (respan f b)) xs <-> Forall (Expands b) xs).
    { intros xs. split; intros H; (eapply Forall_impl; [|exact H]); intros y Hy; apply IH; exact Hy. }
    split; intros H; inversion H; subst; constructor; try assumption; apply HF; assumption.
Qed.

Lemma lang_respan : forall orbit f t w, Lang orbit (respan f t) w <-> Lang orbit t w.
Proof.
  intros orbit f t w. unfold Lang.
  split; intros [x [Hx Hm]]; exists x; (split; [apply (expands_respan f t x); exact Hx|exact Hm]).
Qed.

Lemma is_cat_respan : forall g t, is_cat (respan g t) = is_cat t.
Proof. intros g []; reflexivity. Qed.

Lemma bounds_respan : forall g t, tok_bounds_ok t -> tok_bounds_ok (respan g t).
Proof.
  intros g. induction t as [sp l|sp bs IH|sp ts IH|sp b lo hi IH] using tok_ind'; intros H; cbn [respan].
  - exact I.
  - apply tok_bounds_ok_alt in H. apply tok_bounds_ok_alt, Forall_map. exact (Forall_mp _ _ _ IH H).
  - apply tok_bounds_ok_cat in H. apply tok_bounds_ok_cat, Forall_map. exact (Forall_mp _ _ _ IH H).
  - destruct H as [H1 H2]. split; [apply IH; exact H1|exact H2].
Qed.
