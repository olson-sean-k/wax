(* RuleAdjFacts.v -- C06: the rule checker is sound for its adjacency rules over *expansions*: if the check passes, no expansion of the
   tree has two adjacent boundaries (separators / tree wildcards), however the alternations nest.
   The breadth-first branch check is read step by step ([branch_item_steps]; its fuel is adequate, [branch_loop_enough]) and
   characterised declaratively ([item_ok]: every reachable item is processed without error), then an induction over the tree carries
   the outer context (the deep left and right neighbours) through nested alternations and repetitions.  The induction
   ([item_claims]) is written once, for a leaf predicate [q] and a tree in which no expansion is empty, no member of a
   concatenation is a concatenation, no two neighbours of a concatenation both satisfy [q] and the copies of a repetition body
   cannot meet at two [q]s; it is used here for boundaries and trees without repetitions ([check_no_adjacent_boundaries]), in
   RuleAdjRep for boundaries with repetitions and in RuleZomRep for zero-or-more wildcards.  The file ends with the boundary
   instance written without the parameters ([junction], [claims]). *)
From WaxModel Require Import Base Token Spec Rule Glob.
From WaxProofs Require Import SpecFacts RuleFacts FuelFacts DepthTreeFacts DepthAltFacts AdjacencyFacts ParseRel ParseShape BuiltNonempty.
Local Open Scope nat_scope.

Definition step_err (o : outer) (x : option tok * tok * option tok) : option rule_kind :=
  let '(l, t, r) := x in
  match t with
  | TAlt sp bs =>
      first_some_l (fun b => match terminals_of (concatenation b) with
                             | Some tm => opt_first (check_branch tm (outer_or o l r)) (check_alternation tm (outer_or o l r))
                             | None => None
                             end) bs
  | TRep sp b lo hi =>
      match terminals_of (concatenation b) with
      | Some tm => opt_first (check_branch tm (outer_or o l r)) (check_repetition tm (outer_or o l r) lo hi)
      | None => None
      end
  | _ => None
  end.

Definition step_children (o : outer) (x : option tok * tok * option tok) : list (outer * tok) :=
  let '(l, t, r) := x in
  match t with
  | TAlt sp bs => map (fun b => (outer_or o l r, b)) bs
  | TRep sp b lo hi => [(outer_or o l r, b)]
  | _ => []
  end.

Definition item_children (it : outer * tok) : list (outer * tok) :=
  flat_map (step_children (fst it)) (adjacent (concatenation (snd it))).

Definition step_verdict (o : outer) (x : option tok * tok * option tok) : option (rule_kind * span) :=
  option_map (fun k => (k, tspan (mid x))) (step_err o x).

Lemma bstep_eq : forall o err q x, bstep o (err, q) x = (opt_first err (step_verdict o x), q ++ step_children o x).
Proof.
  intros o err q [[l t] r]. unfold step_verdict.
  destruct t, err; cbn [bstep step_err step_children mid fst snd tspan option_map opt_first]; rewrite ?app_nil_r; reflexivity.
Qed.

Lemma fold_bstep_eq : forall o xs err q,
  fold_left (bstep o) xs (err, q) = (opt_first err (first_some_l (step_verdict o) xs), q ++ flat_map (step_children o) xs).
Proof.
  intros o. induction xs as [|x xs IH]; intros err q; cbn [fold_left first_some_l flat_map].
  - rewrite app_nil_r. destruct err; reflexivity.
  - rewrite bstep_eq, IH, app_assoc. f_equal. destruct err, (step_verdict o x); reflexivity.
Qed.

Lemma branch_item_steps : forall o tk,
  branch_item (o, tk) = (first_some_l (step_verdict o) (adjacent (concatenation tk)), item_children (o, tk)).
Proof. intros o tk. rewrite branch_item_eq, fold_bstep_eq. reflexivity. Qed.

Lemma step_children_size : forall o x, qsz (step_children o x) + 1 <= tsize (mid x).
Proof.
  intros o [[l t] r]. destruct t as [sp lf|sp bs|sp ts|sp b lo hi]; cbn [step_children mid fst snd].
  - cbn. lia.
  - rewrite qsz_map. cbn [tsize]. fold (csize bs). lia.
  - cbn. lia.
  - cbn [qsz fold_right snd tsize]. lia.
Qed.

Lemma item_children_size : forall o tk, qsz (item_children (o, tk)) < tsize tk.
Proof.
  intros o tk. unfold item_children, adjacent. cbn [fst snd].
  assert (H : forall xs, qsz (flat_map (step_children o) xs) + length xs <= csize (map mid xs)).
  { induction xs as [|x xs IH]; [cbn; lia|]. cbn [flat_map map length]. rewrite qsz_app, csize_cons. pose proof (step_children_size o x). lia. }
  specialize (H (adjacent_aux None (concatenation tk))). rewrite <- (map_length mid (adjacent_aux None (concatenation tk))), adjacent_aux_mid in H.
  pose proof (csize_concatenation tk) as Hc. pose proof (tsize_pos tk) as Hp.
  (* an empty concatenation queues nothing; otherwise the node of the item itself is not counted among its members *)
  destruct (concatenation tk) as [|m ms]; [exact Hp|cbn [length] in H; lia].
Qed.

Lemma queue_step_size : forall it rest f, qsz (it :: rest) < S f -> qsz (rest ++ item_children it) < f.
Proof.
  intros [o tk] rest f H. rewrite qsz_app. pose proof (item_children_size o tk). cbn [qsz fold_right snd] in H. fold (qsz rest) in H. lia.
Qed.

Lemma opt_first_none : forall {A} (a b : option A), opt_first a b = None -> a = None /\ b = None.
Proof. intros A [x|] b H; [discriminate|auto]. Qed.

(* one turn of the loop: the verdict on the first item of the queue, or else the loop on the rest of the queue and the item's children *)
Lemma branch_loop_step : forall f it rest,
  branch_loop (S f) (it :: rest) = opt_first (fst (branch_item it)) (branch_loop f (rest ++ item_children it)).
Proof. intros f [o tk] rest. cbn [branch_loop]. rewrite branch_item_steps. destruct (first_some_l _ _); reflexivity. Qed.

Theorem branch_loop_enough : forall f q k, qsz q < f -> branch_loop (f + k) q = branch_loop f q.
Proof.
  induction f as [|f IH]; intros q k H; [lia|]. destruct q as [|it rest]; [reflexivity|]. cbn [Nat.add]. rewrite !branch_loop_step.
  f_equal. apply IH. exact (queue_step_size it rest f H).
Qed.

Corollary rule_branch_enough : forall t k, branch_loop (S (tsize t) + k) [(outer_default, t)] = rule_branch t.
Proof. intros t k. apply branch_loop_enough. cbn [qsz fold_right snd]. lia. Qed.

(* [ContiguousFacts.reach] is another relation (depths reachable by copies of a body); no file imports both *)
Inductive reach : outer * tok -> outer * tok -> Prop :=
| reach_refl : forall it, reach it it
| reach_step : forall it c d, In c (item_children it) -> reach c d -> reach it d.

Lemma loop_none : forall f q, branch_loop f q = None -> qsz q < f ->
  forall it, In it q -> forall d, reach it d -> fst (branch_item d) = None.
Proof.
  induction f as [|f IH]; intros q H Hs it Hin d Hr; [lia|]. destruct q as [|it0 rest]; [contradiction|].
  rewrite branch_loop_step in H. apply opt_first_none in H. destruct H as [Eb H]. pose proof (queue_step_size it0 rest f Hs) as Hq.
  destruct Hin as [<-|Hin].
  - inversion Hr as [|? c ? Hc Hcd]; subst; [exact Eb|]. apply (IH _ H Hq c); [apply in_or_app; right; exact Hc|exact Hcd].
  - apply (IH _ H Hq it); [apply in_or_app; left; exact Hin|exact Hr].
Qed.

Definition item_ok (o : outer) (tk : tok) : Prop := forall d, reach (o, tk) d -> fst (branch_item d) = None.

Lemma check_item_ok : forall t, check t = Ok None -> item_ok outer_default t.
Proof.
  intros t H d Hr. destruct (check_none t H) as [_ [_ E]]. unfold rule_branch in E.
  apply (loop_none _ _ E ltac:(cbn; lia) (outer_default, t)); [left; reflexivity|exact Hr].
Qed.

Lemma item_ok_steps : forall o tk, item_ok o tk -> forall tr, In tr (adjacent (concatenation tk)) ->
  step_err o tr = None /\ forall c, In c (step_children o tr) -> item_ok (fst c) (snd c).
Proof.
  intros o tk Hok tr Hin. split.
  - pose proof (Hok _ (reach_refl _)) as Hs. rewrite branch_item_steps in Hs. apply first_some_l_none in Hs. rewrite Forall_forall in Hs.
    specialize (Hs tr Hin). unfold step_verdict in Hs. destruct (step_err o tr); [discriminate|reflexivity].
  - intros [oc tc] Hc d Hr. apply Hok. apply (reach_step _ (oc, tc)); [|exact Hr]. apply in_flat_map. exists tr. split; assumption.
Qed.

Definition term_ok_b (o : outer) (b : tok) : Prop :=
  match terminals_of (concatenation b) with Some tm => check_branch tm o = None | None => True end.

Definition alt_ok_b (o : outer) (b : tok) : Prop :=
  match terminals_of (concatenation b) with Some tm => check_alternation tm o = None | None => True end.

Lemma step_err_alt_none : forall o l sp bs r, step_err o (l, TAlt sp bs, r) = None ->
  forall b, In b bs -> term_ok_b (outer_or o l r) b /\ alt_ok_b (outer_or o l r) b.
Proof.
  intros o l sp bs r He b Hin. cbn [step_err] in He. apply first_some_l_none in He. rewrite Forall_forall in He. specialize (He b Hin).
  unfold term_ok_b, alt_ok_b. destruct (terminals_of (concatenation b)) as [tm|]; [exact (opt_first_none _ _ He)|auto].
Qed.

Lemma step_err_rep_none : forall o l sp b lo hi r, step_err o (l, TRep sp b lo hi, r) = None ->
  term_ok_b (outer_or o l r) b /\
  match terminals_of (concatenation b) with Some tm => check_repetition tm (outer_or o l r) lo hi = None | None => True end.
Proof.
  intros o l sp b lo hi r He. cbn [step_err] in He. unfold term_ok_b.
  destruct (terminals_of (concatenation b)) as [tm|]; [exact (opt_first_none _ _ He)|auto].
Qed.

Lemma adjacent_member : forall ts lf l m r, In (l, m, r) (adjacent_aux lf ts) -> In m ts.
Proof.
  intros ts lf l m r H. rewrite <- (adjacent_aux_mid ts lf). apply in_map_iff. exists (l, m, r). split; [reflexivity|exact H].
Qed.

Lemma adjacent_last : forall ts lf e, last_opt ts = Some e -> exists l, In (l, e, None) (adjacent_aux lf ts).
Proof.
  induction ts as [|a ts IH]; intros lf e H; [discriminate|]. destruct ts as [|b ts'].
  - cbn in H. inversion H; subst. exists lf. left. reflexivity.
  - change (last_opt (a :: b :: ts')) with (last_opt (b :: ts')) in H. destruct (IH (Some a) e H) as [l Hl]. exists l. right. exact Hl.
Qed.

(* the shape of parsed trees without repetitions: members of a concatenation are leaves or alternations, branches are concatenations *)
Fixpoint shp (t : tok) : bool :=
  match t with
  | TLeaf _ _ => true
  | TAlt _ bs => forallb (fun b => is_cat b && shp b) bs
  | TCat _ ts => forallb (fun m => negb (is_cat m) && shp m) ts
  | TRep _ _ _ _ => false
  end.

Lemma shp_child : forall t c, shp t = true -> In c (children t) -> shp c = true.
Proof.
  intros [sp l|sp bs|sp ts|sp b lo hi] c H Hin; cbn [children shp] in *; [contradiction| | |discriminate];
    rewrite forallb_forall in H; specialize (H c Hin); apply andb_prop in H; exact (proj2 H).
Qed.

Lemma shp_rep_free : forall t, shp t = true -> rep_free t = true.
Proof.
  induction t as [t IH] using tok_children_ind. intros H. pose proof (fun c Hin => IH c Hin (shp_child t c H Hin)) as Hc.
  destruct t as [sp l|sp bs|sp ts|sp b lo hi]; cbn [rep_free children] in *; [reflexivity| | |discriminate]; apply forallb_forall; exact Hc.
Qed.

Definition cats_flat (t : tok) : Prop := forall sp ts, sub (TCat sp ts) t -> Forall (fun m => is_cat m = false) ts.

Lemma members_flat : forall (f : tok -> bool) ts, forallb (fun m => negb (is_cat m) && f m) ts = true -> Forall (fun m => is_cat m = false) ts.
Proof.
  intros f ts H. rewrite forallb_forall in H. apply Forall_forall. intros m Hin. specialize (H m Hin). apply andb_prop in H.
  apply negb_true_iff. exact (proj1 H).
Qed.

Lemma shp_flat : forall t, shp t = true -> cats_flat t.
Proof. intros t Hs sp ts Hsub. exact (members_flat shp ts (sub_closed (fun c => shp c = true) shp_child _ _ Hsub Hs)). Qed.

Lemma shp_no_rep : forall t sp b lo hi, shp t = true -> sub (TRep sp b lo hi) t -> False.
Proof. intros t sp b lo hi Hs Hsub. pose proof (sub_closed (fun c => shp c = true) shp_child _ _ Hsub Hs) as Hc. discriminate. Qed.

Lemma rep_free_solid : forall t, nonempty_branches t = true -> rep_free t = true -> solid t.
Proof. apply (class_solid rep_free rep_free_child). discriminate. Qed.

Section Claims.
Variables (p : tok -> bool) (q : leaf -> bool).
Hypothesis p_lift : forall t, p t = match t with TLeaf _ l => q l | _ => false end.
Hypothesis branch_reads : forall tm o, check_branch tm o = None ->
  p (term_first tm) && opt_any (ends_with p) (o_left o) = false /\ p (term_last tm) && opt_any (starts_with p) (o_right o) = false.

(* an item: a token queued with its outer context, examined through its concatenation.  The terminals of a branch are compared with
   its context when its parent alternation or repetition is processed ([step_err]), not when the branch itself is dequeued, and the
   root item is never compared: hence the context half of the claim is conditional on [term_ok_b] *)
Definition item_claim (tk : tok) : Prop := forall o, item_ok o tk ->
  forall x, Expands tk x -> gchain q false x = true /\ (term_ok_b o tk -> gctx p q o x).

(* a member of a concatenation between its neighbours; a branch among the members inherits them as its outer context *)
Definition gmfact (o : outer) (tr : option tok * tok * option tok) : Prop :=
  let '(l, m, r) := tr in forall x, Expands m x -> gchain q false x = true /\ (is_branch m = true -> gctx p q (outer_or o l r) x).

Definition member_claim (m : tok) : Prop := forall o l r, step_err o (l, m, r) = None ->
  (forall c, In c (step_children o (l, m, r)) -> item_ok (fst c) (snd c)) -> gmfact o (l, m, r).

(* two neighbours of a concatenation: a leaf is compared by the in-concatenation rule or seen by its neighbour as outer context *)
Lemma gjunction : forall o l a b r xa xb,
  gmfact o (l, a, Some b) -> gmfact o (Some a, b, r) -> is_cat a = false -> is_cat b = false -> solid b ->
  p a && p b = false -> Expands a xa -> Expands b xb -> glast q xa && gfirst q xb = false.
Proof.
  intros o l a b r xa xb Ma Mb Hca Hcb Sb Hadj Hxa Hxb.
  destruct (Ma xa Hxa) as [_ Ca]. destruct (Mb xb Hxb) as [_ Cb].
  assert (Right : is_branch a = true -> glast q xa && gfirst q xb = false).
  { intros Hb. destruct (Ca Hb) as [_ Ca']. cbn [outer_or o_right opt_or opt_any] in Ca'.
    destruct (starts_with p b) eqn:Esb; [rewrite (Ca' eq_refl); reflexivity|].
    rewrite (starts_sound p q p_lift b Sb Esb xb Hxb). apply andb_false_r. }
  destruct a as [spa la|spa bsa|spa tsa|spa ba loa hia]; [|exact (Right eq_refl)|discriminate|exact (Right eq_refl)].
  apply expands_leaf in Hxa. subst xa. change (glast q [la]) with (q la). rewrite p_lift in Hadj.
  destruct (q la) eqn:Ela; [|reflexivity]. cbn [andb] in *.
  assert (Left : is_branch b = true -> gfirst q xb = false).
  { intros Hb. apply (proj1 (Cb Hb)). cbn [outer_or o_left opt_or opt_any ends_with]. rewrite p_lift, Ela. reflexivity. }
  destruct b as [spb lb0|spb bsb|spb tsb|spb bb lob hib]; [|exact (Left eq_refl)|discriminate|exact (Left eq_refl)].
  apply expands_leaf in Hxb. subst xb. rewrite p_lift in Hadj. exact Hadj.
Qed.

Lemma members_facts : forall o ms xs, Forall2 Expands ms xs -> forall lf,
  (forall tr, In tr (adjacent_aux lf ms) -> gmfact o tr) -> Forall (fun m => is_cat m = false /\ solid m) ms -> apart p ms ->
  Forall (fun x => x <> [] /\ gchain q false x = true) xs /\ gjuncs q xs.
Proof.
  intros o ms xs HF. induction HF as [|m x ms' xs' Hx HF' IH]; intros lf Hm Hmem Hap; [split; [constructor|exact I]|].
  inversion Hmem as [|? ? [Hc0 S0] Hmem']; subst. cbn [adjacent_aux] in Hm. pose proof (Hm _ (or_introl eq_refl)) as M0.
  assert (Hap' : apart p ms') by (destruct ms'; [exact I|exact (proj2 Hap)]).
  destruct (IH (Some m) (fun tr Hin => Hm tr (or_intror Hin)) Hmem' Hap') as [F' J'].
  split; [constructor; [split; [exact (solid_nonempty _ _ S0 Hx)|exact (proj1 (M0 x Hx))]|exact F']|].
  destruct HF' as [|m2 y ms2 ys Hy HF2]; [exact I|]. inversion Hmem' as [|? ? [Hc2 S2] _]; subst. cbn [adjacent_aux] in Hm.
  split; [|exact J']. exact (gjunction o lf m m2 _ x y M0 (Hm _ (or_intror (or_introl eq_refl))) Hc0 Hc2 S2 (proj1 Hap) Hx Hy).
Qed.

(* a member that [p] rejects meets the outer context of the item, which reaches it where it has no neighbour: a leaf is compared by
   [check_branch], a branch inherits the context *)
Lemma member_ctx : forall o l m r x, gmfact o (l, m, r) -> is_cat m = false -> p m = false -> Expands m x -> gctx p q (outer_or o l r) x.
Proof.
  intros o l m r x M Hc Hp Hx. destruct m as [sp lf|sp bs|sp ts|sp b lo hi]; [|exact (proj2 (M x Hx) eq_refl)|discriminate|exact (proj2 (M x Hx) eq_refl)].
  apply expands_leaf in Hx. subst x. rewrite p_lift in Hp. split; intros _; exact Hp.
Qed.

Lemma item_ctx : forall o ms xs, Forall2 Expands ms xs -> Forall (fun m => is_cat m = false /\ solid m) ms ->
  (forall tr, In tr (adjacent ms) -> gmfact o tr) -> (forall tm, terminals_of ms = Some tm -> check_branch tm o = None) -> gctx p q o (concat xs).
Proof.
  intros o ms xs HF Hmem Hm Ht. destruct HF as [|m0 x0 ms0 xs0 Hx0 HF0]; [split; intros _; reflexivity|].
  destruct (terminals_of_ends (m0 :: ms0)) as [tm [rest [Et [E1 El]]]]; [discriminate|].
  destruct (branch_reads tm o (Ht tm Et)) as [BL BR]. injection E1 as E1 _. rewrite <- E1 in BL. rewrite Forall_forall in Hmem. split; intros H.
  - rewrite H, andb_true_r in BL. destruct (Hmem m0 (or_introl eq_refl)) as [Hc0 S0].
    cbn [concat]. rewrite gfirst_app by exact (solid_nonempty _ _ S0 Hx0).
    exact (proj1 (member_ctx o None m0 _ x0 (Hm _ (or_introl eq_refl)) Hc0 BL Hx0) H).
  - rewrite H, andb_true_r in BR. destruct (forall2_last _ _ _ _ (Forall2_cons _ _ Hx0 HF0) El) as [pre [xe [-> Hxe]]].
    destruct (Hmem _ (last_opt_in _ _ El)) as [Hce Se]. rewrite glast_concat_snoc by exact (solid_nonempty _ _ Se Hxe).
    destruct (adjacent_last (m0 :: ms0) None _ El) as [le Hle]. exact (proj2 (member_ctx o le _ None xe (Hm _ Hle) Hce BR Hxe) H).
Qed.

Lemma item_of_members : forall tk, Forall (fun m => is_cat m = false /\ solid m /\ member_claim m) (concatenation tk) ->
  apart p (concatenation tk) -> item_claim tk.
Proof.
  intros tk Hms Hap o Hok x Hx. apply expands_concatenation in Hx. destruct Hx as [xs [HF ->]].
  assert (Hmem : Forall (fun m => is_cat m = false /\ solid m) (concatenation tk)) by (eapply Forall_impl; [|exact Hms]; intros m [H1 [H2 _]]; exact (conj H1 H2)).
  assert (Hm : forall tr, In tr (adjacent (concatenation tk)) -> gmfact o tr).
  { intros [[l m] r] Hin. destruct (item_ok_steps o tk Hok _ Hin) as [He Hc]. rewrite Forall_forall in Hms.
    destruct (Hms m (adjacent_member _ _ _ _ _ Hin)) as [_ [_ Hmc]]. exact (Hmc o l r He Hc). }
  destruct (members_facts o _ xs HF None Hm Hmem Hap) as [F J]. split; [apply gchain_concat; assumption|].
  intros Ht. apply (item_ctx o _ xs HF Hmem Hm). intros tm E. unfold term_ok_b in Ht. rewrite E in Ht. exact Ht.
Qed.

(* the copies of the body of a repetition that the checker passes cannot meet at two [q]s *)
Definition wrap_ok (sp : span) (b : tok) (lo : N) (hi : option N) : Prop := forall o l r, step_err o (l, TRep sp b lo hi, r) = None ->
  forall y y', Expands b y -> Expands b y' -> glast q y && gfirst q y' = false.

(* a member whose children, queued as items, have their claims: every branch of an alternation is an item in the context of the
   alternation, and so is the body of a repetition, whose copies meet each other *)
Lemma member_of_items : forall m, is_cat m = false -> solid m -> (forall sp b lo hi, m = TRep sp b lo hi -> wrap_ok sp b lo hi) ->
  (forall c, In c (children m) -> item_claim c) -> member_claim m.
Proof.
  intros m Hcat Sm Hw Hch o l r He Hok x Hx. destruct m as [sp lf|sp bs|sp ts|sp b lo hi]; [| |discriminate|].
  - apply expands_leaf in Hx. subst x. split; [reflexivity|discriminate].
  - apply expands_alt in Hx. destruct Hx as [b [Hin Hxb]].
    destruct (Hch b Hin (outer_or o l r) (Hok (outer_or o l r, b) (in_map _ _ _ Hin)) x Hxb) as [C1 C2].
    split; [exact C1|intros _; exact (C2 (proj1 (step_err_alt_none o l sp bs r He b Hin)))].
  - apply expands_rep in Hx. destruct Hx as [ys [_ [HF ->]]]. destruct (step_err_rep_none o l sp b lo hi r He) as [Ht _].
    pose proof (Hch b (or_introl eq_refl) (outer_or o l r) (Hok (outer_or o l r, b) (or_introl eq_refl))) as Hb.
    pose proof (solid_body _ _ _ _ Sm) as Sb. split.
    + apply gchain_concat; [|exact (copies_gjuncs q (Expands b) ys HF (Hw sp b lo hi eq_refl o l r He))].
      eapply Forall_impl; [|exact HF]. intros z Hz. split; [exact (solid_nonempty _ _ Sb Hz)|exact (proj1 (Hb z Hz))].
    + intros _. apply gctx_concat. eapply Forall_impl; [|exact HF]. intros z Hz. split; [exact (solid_nonempty _ _ Sb Hz)|exact (proj2 (Hb z Hz) Ht)].
Qed.

Definition gcats (t : tok) : Prop := forall sp ts, sub (TCat sp ts) t -> apart p ts.
Definition reps_wrap (t : tok) : Prop := forall sp b lo hi, sub (TRep sp b lo hi) t -> wrap_ok sp b lo hi.

Theorem item_claims : forall t, solid t -> cats_flat t -> gcats t -> reps_wrap t -> item_claim t /\ (is_cat t = false -> member_claim t).
Proof.
  (* the hypotheses speak of the descendants of [t]: with [t] fixed, the claims are proved of every descendant [c], by induction on [c] *)
  intros t Hso Hfl Hap Hw. enough (H : forall c, sub c t -> item_claim c /\ (is_cat c = false -> member_claim c)) by exact (H t (sub_refl t)).
  induction c as [c IH] using tok_children_ind. intros Hs.
  pose proof (fun d Hin => IH d Hin (sub_trans d c t (sub_child d d c Hin (sub_refl d)) Hs)) as Hch.
  assert (Sc : solid c) by (intros x Hx; exact (Hso x (sub_trans x c t Hx Hs))).
  assert (Hm : is_cat c = false -> member_claim c).
  { intros Hc. apply (member_of_items c Hc Sc); [|intros d Hin; exact (proj1 (Hch d Hin))].
    intros sp b lo hi ->. exact (Hw sp b lo hi Hs). }
  split; [|exact Hm].
  (* a token that is not a concatenation is the only member of its item *)
  destruct c as [sp l|sp bs|sp ts|sp b lo hi]; apply item_of_members; cbn [concatenation];
    try (constructor; [exact (conj eq_refl (conj Sc (Hm eq_refl)))|constructor]); try exact I.
  - pose proof (Hfl sp ts Hs) as Hnc. rewrite Forall_forall in Hnc. apply Forall_forall. intros m Hin.
    split; [exact (Hnc m Hin)|]. split; [exact (solid_child _ _ Sc Hin)|exact (proj2 (Hch m Hin) (Hnc m Hin))].
  - exact (Hap sp ts Hs).
Qed.

Corollary shp_item_claim : forall t, shp t = true -> nonempty_branches t = true -> gcats t -> item_claim t.
Proof.
  intros t Hs Hn Hc. apply item_claims; [exact (rep_free_solid t Hn (shp_rep_free t Hs))|exact (shp_flat t Hs)|exact Hc|].
  intros sp b lo hi Hsub. destruct (shp_no_rep t sp b lo hi Hs Hsub).
Qed.
End Claims.

Lemma is_boundary_lift : forall t, is_boundary t = match t with TLeaf _ l => is_bnd l | _ => false end.
Proof. intros [sp []| | |]; reflexivity. Qed.

Definition cats_ok (t : tok) : Prop := forall sp ts, sub (TCat sp ts) t -> adjacent_boundary ts = None.

Lemma cats_ok_child : forall t c, cats_ok t -> In c (children t) -> cats_ok c.
Proof. intros t c H Hin sp ts Hs. apply (H sp ts). eapply sub_child; [exact Hin|exact Hs]. Qed.

Lemma adjacent_boundary_apart : forall ts, adjacent_boundary ts = None -> apart is_boundary ts.
Proof.
  induction ts as [|a ts IH]; intros H; [exact I|]. destruct ts as [|b r]; [exact I|].
  split; [exact (adjacent_boundary_none [] a b r H)|exact (IH (adjacent_boundary_tail _ _ H))].
Qed.

Lemma cats_ok_apart : forall t, cats_ok t -> gcats is_boundary t.
Proof. intros t H sp ts Hsub. exact (adjacent_boundary_apart ts (H sp ts Hsub)). Qed.

Lemma boundary_item_claim : forall t, shp t = true -> nonempty_branches t = true -> cats_ok t -> item_claim is_boundary is_bnd t.
Proof. intros t Hs Hn Hc. exact (shp_item_claim is_boundary is_bnd is_boundary_lift (fun tm o H => proj1 (check_branch_none tm o H)) t Hs Hn (cats_ok_apart t Hc)). Qed.

(* C06 / C10: every expansion of a glob without repetitions that passes the rule checker is free of adjacent boundaries *)
Theorem check_no_adjacent_boundaries : forall t, check t = Ok None -> shp t = true -> nonempty_branches t = true ->
  forall x, Expands t x -> chain_ok false x = true.
Proof.
  intros t Hck Hs Hn x Hx.
  exact (proj1 (boundary_item_claim t Hs Hn (built_no_adjacent_boundary_everywhere t Hck) outer_default (check_item_ok t Hck) x Hx)).
Qed.

Lemma sh_shp : forall t, sh t -> rep_free t = true -> shp t = true.
Proof.
  induction t as [sp l|sp bs IH|sp ts IH|sp b lo hi IH] using tok_ind'; intros Hs Hr; try reflexivity; try discriminate.
  - exact (all_sh_shp true is_cat rep_free shp bs (fun x H => H) IH Hs Hr).
  - exact (all_sh_shp false (fun m => negb (is_cat m)) rep_free shp ts (fun x H => f_equal negb H) IH Hs Hr).
Qed.

(* C06 / C10: no expansion of a glob that builds and has no repetition holds two adjacent boundaries *)
Theorem built_no_adjacent_boundaries : forall e t r, build e = BuildOk t r -> rep_free t = true ->
  forall x, Expands t x -> chain_ok false x = true.
Proof.
  intros e t r Hb Hr x Hx. destruct (build_ok_inv _ _ _ Hb) as (Ep & Ec & _).
  apply (check_no_adjacent_boundaries t Ec); [apply sh_shp; [eapply parse_sh; exact Ep|exact Hr]| |exact Hx].
  exact (built_nonempty_branches e t r Hb).
Qed.

(* the boundary instances of [ends_sound], [gctx] (AdjacencyFacts) and of [gmfact], [gjunction], [item_claim] on trees without repetitions,
   spelled out.  Nothing below or in another file uses them; [P], [ctx], [member], [mfact] are global names that every importer sees. *)
Definition ends_b (t : tok) : bool := ends_with is_boundary t.

Lemma ends_b_sound : forall t, nonempty_branches t = true -> rep_free t = true -> ends_b t = false ->
  forall x, Expands t x -> lb x = false.
Proof. intros t Hn Hr. exact (ends_sound is_boundary is_bnd is_boundary_lift t (rep_free_solid t Hn Hr)). Qed.

Definition ctx (o : outer) (x : list leaf) : Prop :=
  (has_ending_boundary (o_left o) = true -> fb x = false) /\ (has_starting_boundary (o_right o) = true -> lb x = false).

Definition P (t : tok) : Prop := forall o,
  match t with
  | TCat sp ts => item_ok o t -> forall x, Expands t x -> chain_ok false x = true /\ (term_ok_b o t -> ctx o x)
  | TAlt sp bs => (forall b, In b bs -> item_ok o b /\ term_ok_b o b) -> forall x, Expands t x -> chain_ok false x = true /\ ctx o x
  | _ => True
  end.

Definition member (m : tok) : Prop :=
  negb (is_cat m) = true /\ shp m = true /\ nonempty_branches m = true.

Definition mfact (o : outer) (tr : option tok * tok * option tok) : Prop :=
  let '(l, m, r) := tr in forall x, Expands m x -> x <> [] /\ chain_ok false x = true /\
     match m with TAlt _ _ => ctx (outer_or o l r) x | _ => True end.

Lemma mfact_gmfact : forall o l m r, member m -> mfact o (l, m, r) -> gmfact is_boundary is_bnd o (l, m, r).
Proof.
  intros o l m r [Hc [Hs _]] M x Hx. destruct (M x Hx) as [_ [C1 C2]]. split; [exact C1|].
  destruct m; intros Hb; try discriminate. exact C2.
Qed.

Lemma junction : forall o l a b r xa xb,
  mfact o (l, a, Some b) -> mfact o (Some a, b, r) -> member a -> member b ->
  is_boundary a && is_boundary b = false -> Expands a xa -> Expands b xb -> lb xa && fb xb = false.
Proof.
  intros o l a b r xa xb Ma Mb Ha Hb.
  apply (gjunction is_boundary is_bnd is_boundary_lift o l a b r xa xb (mfact_gmfact _ _ _ _ Ha Ma) (mfact_gmfact _ _ _ _ Hb Mb)).
  - apply negb_true_iff. exact (proj1 Ha).
  - apply negb_true_iff. exact (proj1 Hb).
  - destruct Hb as [_ [Hs Hn]]. exact (rep_free_solid b Hn (shp_rep_free b Hs)).
Qed.

Theorem claims : forall t, shp t = true -> nonempty_branches t = true -> cats_ok t -> P t.
Proof.
  intros t Hs Hn Hc. destruct t as [sp l|sp bs|sp ts|sp b lo hi]; cbn [P]; try exact (fun _ => I).
  - intros o Hb x Hx. apply expands_alt in Hx. destruct Hx as [b [Hin Hxb]]. destruct (Hb b Hin) as [Hok Ht].
    destruct (boundary_item_claim b (shp_child _ _ Hs Hin) (nonempty_child _ _ Hn Hin) (cats_ok_child _ _ Hc Hin) o Hok x Hxb) as [C1 C2].
    exact (conj C1 (C2 Ht)).
  - exact (boundary_item_claim (TCat sp ts) Hs Hn Hc).
Qed.
