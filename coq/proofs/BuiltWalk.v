(* BuiltWalk.v -- C02 in terms of the documented language: for a glob that builds outside the known classes of C01, the walk yields
   exactly the entries whose path below the directory given belongs to the documented language of the glob. *)
From Coq Require Import Arith.
From WaxModel Require Import Base Regex Spec Encode Query Glob Walk.
From WaxProofs Require Import ParseRel WalkFacts PruneFacts ParseTreeFacts GlobWalkFacts BuiltConformance.
Local Open Scope nat_scope.

Theorem built_glob_walk_yields_the_language : forall orbit, (forall c d, In d (orbit c) -> d <> SEP) ->
  forall e t r, build e = BuildOk t r -> has_reversed_range t = false -> trees_stable t = true -> rooted_first_tree t = false ->
  forall complete : str -> bool, (forall w, complete w = true <-> sem orbit (encode t) w) ->
  forall progs : list (name -> bool),
    Forall2 (fun (pr : name -> bool) re0 => forall w, pr w = true <-> sem orbit re0 w) progs (component_programs t) ->
  forall prefix, Forall valid_name prefix ->
  forall root, names_valid root ->
  forall q, In q (yields (walk 0 None [glob_layer prefix progs complete] root)) <->
            In q (all_entries [] root) /\ Lang orbit t (join_path (prefix ++ q)) /\ length progs <= length (prefix ++ q).
Proof.
  intros orbit Hon e t r Hb Hrr Hst Hrf complete Hc progs Hp prefix Hpre root Hroot q.
  assert (Hlit : lits_nosep t = true).
  { eapply parse_lits_nosep. exact (proj1 (build_ok_inv _ _ _ Hb)). }
  rewrite (glob_walk_complete orbit Hon t Hlit complete Hc progs Hp prefix Hpre root Hroot). rewrite filter_In. unfold keeps. rewrite andb_true_iff, Nat.leb_le.
  rewrite Hc, (built_conformance orbit e t r Hb Hrr Hst Hrf). tauto.
Qed.
