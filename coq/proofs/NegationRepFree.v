(* NegationRepFree.v -- what every alternative of a glob that builds, has no repetition and cannot end with a separator inherits
   from the whole, stated without the class of NegationRep (`Qalt`; the rule checker's guarantees are about expansions, and an
   alternative's expansions are expansions of the whole).  The C03 theorems go through `NegationRep.Qrep`, of which a glob without
   repetitions is an instance. *)
From WaxModel Require Import Base Token Spec Query.
From WaxProofs Require Import AlgebraFacts SpecFacts NegationFacts DepthTreeFacts DepthAltFacts RuleAdjFacts RuleZomFacts.
Local Open Scope nat_scope.

Definition Qalt (a : tok) : Prop :=
  tok_bounds_ok a /\ rep_free a = true /\ shp a = true /\ nonempty_branches a = true /\ may_end_sep a = false /\
  forall x, Expands a x -> chain_ok false x = true /\ zchain false x = true.

Lemma Qalt_branch : forall sp bs b, Qalt (TAlt sp bs) -> In b bs -> Qalt b.
Proof.
  intros sp bs b [Hb [Hr [Hs [Hn [Hm Hx]]]]] Hin. cbn [rep_free shp nonempty_branches may_end_sep] in *. apply andb_prop in Hn. destruct Hn as [_ Hn].
  rewrite forallb_forall in Hr, Hs, Hn. specialize (Hs b Hin). apply andb_prop in Hs. destruct Hs as [_ Hs]. apply tok_bounds_ok_alt in Hb. rewrite Forall_forall in Hb.
  repeat split; auto; try (apply Hx; econstructor; eassumption).
  destruct (may_end_sep b) eqn:E; [|reflexivity]. assert (existsb may_end_sep bs = true) by (apply existsb_exists; eauto). congruence.
Qed.

Lemma Qalt_cat : forall sp b, Qalt (TCat sp [b]) -> Qalt b.
Proof.
  intros sp b [Hbd [Hr [Hs [Hn [Hm Hx]]]]]. cbn [tok_bounds_ok rep_free shp nonempty_branches may_end_sep forallb] in *.
  rewrite !andb_true_r in *. cbn [is_nil negb andb] in Hn. apply andb_prop in Hs. rewrite orb_false_r in Hm.
  repeat split; try tauto; apply (Hx x), expands_single_cat; assumption.
Qed.

Lemma alternatives_Q : forall fuel queue, Forall Qalt queue -> Forall Qalt (alternatives_loop fuel queue).
Proof. apply (alternatives_inherit Qalt Qalt_branch Qalt_cat). intros sp b [_ [Hr _]]. discriminate Hr. Qed.
