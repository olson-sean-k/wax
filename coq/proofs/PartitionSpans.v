(* PartitionSpans.v -- C08 / C17: the spans of the top-level tokens of the postfix of a partition - hence its capture spans - lie in
   the displayed suffix of the expression, on character boundaries.  The tokens tile the expression, so every token from the cut
   on begins at or after the popped bytes; the shift by the number of popped bytes maps a span of the expression to the same
   characters of the suffix. *)
From WaxModel Require Import Base Token Query Glob.
From WaxProofs Require Import ParseFacts ParseRel SpanFacts OwnedFacts BuiltFacts PartitionFacts PartitionLang.
Local Open Scope N_scope.

Lemma span_shift : forall A e' s n, span_ok (A ++ e') (s, n) -> blen A <= s -> span_ok e' (s - blen A, n).
Proof.
  intros A e' s n [pre [mid [post [He [Hs Hn]]]]] Hle. cbn [fst snd] in *.
  destruct (blen_split_le _ _ _ _ He) as [l [-> ->]]; [lia|]. rewrite blen_app in Hs.
  exists l, mid, post. split; [reflexivity|]. cbn [fst snd]. split; [lia|exact Hn].
Qed.

Lemma drop_bytes_split : forall e n e', drop_bytes e n = Some e' -> boundary_of e n -> exists A, e = A ++ e' /\ blen A = n.
Proof. intros e n e' H [pre [post [-> ->]]]. rewrite drop_bytes_app in H. inversion H; subst. exists pre. auto. Qed.

Theorem postfix_capture_spans_ok : forall hc e t r text post e' c,
  build e = BuildOk t r -> partition hc e t = Ok (PartSome text post e') -> In c (captures post) -> span_ok e' (snd c).
Proof.
  intros hc e t r text post e' c Hb Hp Hc. apply captures_in in Hc. destruct Hc as [x [Hx ->]]. revert x Hx. apply Forall_forall.
  destruct (parse_ok_R e t (proj1 (build_ok_inv _ _ _ Hb))) as [[-> ->]|(ts & i1 & _ & _ & _ & ->)].
  - unfold partition in Hp. destruct (invariant_text_prefix hc tok_empty) as [[n text0]|]; [|discriminate]. cbn [rbind tok_empty] in Hp.
    destruct (n =? 0); [|discriminate]. cbn in Hp. inversion Hp; subst. repeat constructor. exists [], [], []. repeat split.
  - destruct (partition_shape hc _ _ _ _ _ _ (built_bounds_ok _ _ _ Hb) Hp) as [pre [first [rest [-> [_ [-> Hd]]]]]].
    destruct (built_cut _ _ _ _ _ _ Hb) as [Hbd Hall]. destruct (drop_bytes_split _ _ _ Hd Hbd) as [A [-> HA]].
    cbn [respan concatenation]. apply Forall_map. eapply Forall_impl; [|exact Hall]. intros m [Hs Hle]. rewrite tspan_respan.
    destruct (tspan m) as [s1 n1]. unfold shift. cbn [fst snd] in *. rewrite <- HA in *. apply span_shift; assumption.
Qed.
