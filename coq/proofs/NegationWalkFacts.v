(* NegationWalkFacts.v -- the two classes the C03 statements for whole negations are made of: `flat_ok`, the flat,
   rule-checked alternatives that do not end in a separator (`**/target/**`, `*.md`, `**/.git/**`, `src/**/*.tmp`, ...),
   and `decides`, what is asked of the two engines of a negation. *)
From WaxModel Require Import Base Token Rule.
From WaxProofs Require Import AlgebraFacts WalkFacts NegationFacts ZomFacts ExhaustFacts.
Local Open Scope nat_scope.

Definition flat_ok (a : tok) : Prop :=
  match a with
  | TCat _ ts => forallb is_leaf ts = true /\ adjacent_boundary ts = None /\ adj_zom ts = false /\ last_not_sep ts
  | _ => False
  end.

Lemma flat_bounds_ok : forall a, flat_ok a -> tok_bounds_ok a.
Proof.
  intros [| |sp ts|] H; try contradiction. destruct H as [Hl _]. cbn [tok_bounds_ok].
  induction ts as [|t ts IH]; [exact I|]. cbn [forallb] in Hl. apply andb_prop in Hl. destruct Hl as [Ht Hts].
  split; [destruct t; try discriminate; exact I|apply IH; exact Hts].
Qed.

Section NegationWalk.
Variable orbit : char -> list char.
Notation Lang := (Spec.Lang orbit).

(* the engines decide the documented languages of the two parts (the regex crate on the compiled programs, through conformance) *)
Definition decides (f : option (str -> bool)) (o : option tok) : Prop :=
  match f, o with
  | Some g, Some t => forall w, g w = true <-> Lang t w
  | None, None => True
  | _, _ => False
  end.

Lemma decides_lang : forall f o w, decides f o -> (opt_match f w = true <-> opt_lang orbit o w).
Proof.
  intros [g|] [t|] w H; try contradiction; cbn [opt_match opt_lang]; [apply H|split; [discriminate|contradiction]].
Qed.

End NegationWalk.
