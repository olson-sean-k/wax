(* SpecFacts.v -- the general lemmas of the development, in this order: lists ([last_opt], [is_nil], [forallb], [Forall2]);
   [rmapM]; strings ([starts_sep], [ends_sep], [tree_piece] by position); literals (C11 [lit_sem_exact]) and [FlatMatch]
   ([flatmatch_app]: a sequence in two parts); [Expands] by the form of the tree; the certainty fold and the bounds of a
   repetition whose range is a single number; the classes [ends_tree] (C09: [ends_tree_exhaustive]) and [nonempty_branches]
   (true of parsed trees) by the form of the tree, and what "always rooted" means for the latter (C12: [root_sound]). *)
From WaxModel Require Import Base Token Regex Spec Variance Fold.
From WaxProofs Require Import AlgebraClosure.

Lemma last_opt_app : forall {A} (l : list A) a, last_opt (l ++ [a]) = Some a.
Proof.
  induction l as [|b l IH]; intros a; [reflexivity|].
  cbn [app]. destruct (l ++ [a]) eqn:E; [destruct l; discriminate|].
  change (last_opt (b :: a0 :: l0)) with (last_opt (a0 :: l0)). rewrite <- E. apply IH.
Qed.

Lemma last_opt_some : forall {A} (l : list A) a, last_opt l = Some a -> exists l', l = l' ++ [a].
Proof.
  induction l as [|b l IH]; intros a H; [discriminate|].
  destruct l as [|c l'].
  - cbn in H. inversion H; subst. exists []. reflexivity.
  - change (last_opt (b :: c :: l')) with (last_opt (c :: l')) in H.
    destruct (IH a H) as [l'' E]. exists (b :: l''). cbn [app]. rewrite <- E. reflexivity.
Qed.

Lemma last_opt_nonempty : forall {A} (l : list A), l <> [] -> exists x, last_opt l = Some x.
Proof.
  induction l as [|a l IH]; intros H; [congruence|]. destruct l as [|b l']; [exists a; reflexivity|].
  destruct IH as [x Hx]; [discriminate|]. exists x. exact Hx.
Qed.

Lemma last_opt_cons : forall {A} (a : A) l, last_opt (a :: l) = match last_opt l with Some x => Some x | None => Some a end.
Proof.
  intros A a [|b l]; [reflexivity|]. destruct (last_opt_nonempty (b :: l)) as [x Hx]; [discriminate|].
  change (last_opt (a :: b :: l)) with (last_opt (b :: l)). rewrite Hx. reflexivity.
Qed.

Lemma concat_snoc : forall {A} (xs : list (list A)) x, concat (xs ++ [x]) = concat xs ++ x.
Proof. intros. rewrite concat_app. cbn [concat]. rewrite app_nil_r. reflexivity. Qed.

Lemma is_nil_false : forall {A} (l : list A), negb (is_nil l) = true <-> l <> [].
Proof. intros A [|a l]; cbn; split; congruence. Qed.

Lemma is_nil_app : forall {A} (x y : list A), is_nil (x ++ y) = is_nil x && is_nil y.
Proof. intros A [|a x] y; reflexivity. Qed.

(* the "last" flag of the first part of a sequence in two parts *)
Lemma andb_is_nil_app : forall {A} l (x y : list A), l && is_nil (x ++ y) = l && is_nil y && is_nil x.
Proof. intros A l [|a x] y; cbn [app is_nil]; [rewrite andb_true_r|rewrite !andb_false_r]; reflexivity. Qed.

Lemma is_nil_concat : forall {A} (xs : list (list A)), is_nil (concat xs) = forallb is_nil xs.
Proof. induction xs as [|x xs IH]; [reflexivity|]. cbn [concat forallb]. rewrite is_nil_app, IH. reflexivity. Qed.

Lemma is_nil_map : forall {A B} (g : A -> B) l, is_nil (map g l) = is_nil l.
Proof. intros A B g [|a l]; reflexivity. Qed.

Lemma nonempty_in : forall {A} (l : list A), l <> [] -> exists a, In a l.
Proof. intros A [|a l] H; [congruence|exists a; left; reflexivity]. Qed.

Lemma forallb_Forall : forall {A} (f : A -> bool) l, forallb f l = true <-> Forall (fun x => f x = true) l.
Proof. intros A f l. rewrite forallb_forall, Forall_forall. reflexivity. Qed.

Lemma forallb_concat : forall {A} (p : A -> bool) xs, Forall (fun x => forallb p x = true) xs -> forallb p (concat xs) = true.
Proof. intros A p xs H. induction H as [|x xs Hx _ IH]; [reflexivity|]. cbn [concat]. rewrite forallb_app, Hx, IH. reflexivity. Qed.

Lemma forall2_length : forall {A B} (R : A -> B -> Prop) xs ys, Forall2 R xs ys -> length xs = length ys.
Proof. intros A B R xs ys H. induction H; cbn; congruence. Qed.

Lemma forall2_in_l : forall {A B} (R : A -> B -> Prop) l l' a, Forall2 R l l' -> In a l -> exists b, In b l' /\ R a b.
Proof.
  intros A B R l l' a H. induction H as [|x y l l' Hxy _ IH]; intros Hin; [contradiction|]. destruct Hin as [<-|Hin].
  - exists y. split; [left; reflexivity|exact Hxy].
  - destruct (IH Hin) as [b [Hb Hr]]. exists b. split; [right; exact Hb|exact Hr].
Qed.

Lemma forall2_in_r : forall {A B} (R : A -> B -> Prop) l l' b, Forall2 R l l' -> In b l' -> exists a, In a l /\ R a b.
Proof.
  intros A B R l l' b H. induction H as [|x y l l' Hxy _ IH]; intros Hin; [contradiction|]. destruct Hin as [<-|Hin].
  - exists x. split; [left; reflexivity|exact Hxy].
  - destruct (IH Hin) as [a [Ha Hr]]. exists a. split; [right; exact Ha|exact Hr].
Qed.

Lemma forall2_rev : forall {A B} (R : A -> B -> Prop) l l', Forall2 R l l' -> Forall2 R (rev l) (rev l').
Proof. intros A B R l l' H. induction H as [|x y l l' Hxy _ IH]; [constructor|]. cbn [rev]. apply Forall2_app; [exact IH|constructor; [exact Hxy|constructor]]. Qed.

Lemma forall2_repeat : forall {A B} (R : A -> B -> Prop) a b n, R a b -> Forall2 R (repeat a n) (repeat b n).
Proof. intros A B R a b n H. induction n; cbn; constructor; assumption. Qed.

Lemma forall2_repeat_l : forall {A B} (R : A -> B -> Prop) a ys, Forall2 R (repeat a (length ys)) ys <-> Forall (R a) ys.
Proof.
  intros A B R a ys. induction ys as [|y ys IH]; cbn [length repeat].
  - split; constructor.
  - split; intros H; inversion H; subst; constructor; try assumption; apply IH; assumption.
Qed.

Lemma forall_pieces : forall {A B} (L : B -> Prop) (X : A -> Prop) (M : A -> B -> Prop),
  (forall u, L u <-> exists x, X x /\ M x u) -> forall ws, Forall L ws <-> exists xs, Forall X xs /\ Forall2 M xs ws.
Proof.
  intros A B L X M H ws. split.
  - intros HF. induction HF as [|u ws Hu _ [xs [IH1 IH2]]]; [exists []; split; constructor|].
    apply H in Hu. destruct Hu as [x [Hx Hm]]. exists (x :: xs). split; constructor; assumption.
  - intros [xs [HX HF]]. induction HF as [|x u xs ws Hm _ IH]; constructor; inversion HX; subst; [apply H; exists x; split; assumption|apply IH; assumption].
Qed.

Lemma opt_list_map_some : forall {A B} (f : A -> B) l, flat_map opt_list (map (fun t => Some (f t)) l) = map f l.
Proof. intros A B f l. induction l as [|a l IH]; [reflexivity|]. cbn [map flat_map opt_list app]. rewrite IH. reflexivity. Qed.

Lemma rmapM_ok_forall2 : forall {A B} (f : A -> res B) l rs, rmapM f l = Ok rs -> Forall2 (fun a r => f a = Ok r) l rs.
Proof.
  induction l as [|x l IH]; intros rs H.
  - inversion H; subst. constructor.
  - cbn [rmapM rbind] in H. destruct (f x) as [b|] eqn:Ef; [|discriminate]. cbn [rbind] in H.
    destruct (rmapM f l) as [bs|] eqn:El; [|discriminate]. inversion H; subst. constructor; [exact Ef|apply IH; reflexivity].
Qed.

Lemma rmapM_ok_in : forall {A B} (f : A -> res B) l rs a,
  rmapM f l = Ok rs -> In a l -> exists r, f a = Ok r /\ In r rs.
Proof.
  intros A B f l rs a H Hin. destruct (forall2_in_l _ _ _ _ (rmapM_ok_forall2 f l rs H) Hin) as [r [Hr Hf]]. exists r. auto.
Qed.

Lemma starts_sep_app : forall u v, starts_sep u = true -> starts_sep (u ++ v) = true.
Proof. intros [|c u] v H; [discriminate|exact H]. Qed.

Lemma starts_sep_iff : forall w, starts_sep w = true <-> exists u, w = SEP :: u.
Proof.
  intros [|c w]; cbn [starts_sep]; split.
  - discriminate.
  - intros [u H]; discriminate.
  - intros H. apply N.eqb_eq in H. subst. eexists. reflexivity.
  - intros [u H]. inversion H. apply N.eqb_refl.
Qed.

Lemma ends_sep_snoc_irrelevant : forall u c, ends_sep (u ++ [c]) = N.eqb c SEP.
Proof. intros u c. unfold ends_sep. rewrite rev_app_distr. reflexivity. Qed.

Lemma ends_sep_iff : forall w, ends_sep w = true <-> exists u, w = u ++ [SEP].
Proof.
  intros w. unfold ends_sep. rewrite starts_sep_iff. split.
  - intros [u H]. exists (rev u). rewrite <- (rev_involutive w), H. cbn [rev]. reflexivity.
  - intros [u ->]. exists (rev u). rewrite rev_app_distr. reflexivity.
Qed.

Lemma tree_piece_only : forall root w, tree_piece true true root w = negb root || starts_sep w.
Proof. intros root w. unfold tree_piece. destruct root; cbn [andb negb orb]; [|reflexivity]. rewrite orb_false_r. apply andb_true_r. Qed.

Lemma tree_piece_first : forall root w,
  tree_piece true false root w = if root then starts_sep w && ends_sep w else ends_sep w || is_nil w.
Proof. intros root w. unfold tree_piece. destruct root; cbn [andb negb orb]; [|reflexivity]. rewrite !orb_false_r. reflexivity. Qed.

Lemma tree_piece_mid : forall root w, tree_piece false false root w = starts_sep w && ends_sep w.
Proof. intros root w. unfold tree_piece. cbn [andb negb orb]. rewrite !orb_false_r. reflexivity. Qed.

Lemma tree_piece_last : forall root w, tree_piece false true root w = starts_sep w || is_nil w.
Proof. intros root w. unfold tree_piece. cbn [andb negb orb]. apply andb_true_r. Qed.

Lemma tree_piece_extend :
  forall f root u z, tree_piece f true root u = true -> tree_piece f true root (u ++ SEP :: z) = true.
Proof.
  intros f root u z H. unfold tree_piece in *.
  destruct u as [|c u]; cbn [app starts_sep is_nil] in *.
  - destruct f, root; cbn in *; try discriminate; reflexivity.
  - destruct f, root, (c =? SEP); cbn in *; try discriminate; reflexivity.
Qed.

Section Matching.
Variable orbit : char -> list char.
Notation FlatMatch := (FlatMatch orbit).
Notation leaf_piece := (leaf_piece orbit).

(* C11: a case sensitive literal matches exactly its own text *)
Lemma lit_sem_exact : forall s w, lit_sem orbit false s w -> w = s.
Proof.
  intros s w H. induction H as [|c d s w Hc _ IH]; [reflexivity|].
  unfold lit_char_match in Hc. cbn [andb] in Hc. rewrite orb_false_r in Hc. apply N.eqb_eq in Hc. subst. reflexivity.
Qed.

Lemma lit_sem_refl : forall ci s, lit_sem orbit ci s s.
Proof.
  induction s as [|c s IH]; constructor; [|exact IH]. unfold lit_char_match. rewrite N.eqb_refl. reflexivity.
Qed.

Lemma leaf_piece_flags : forall a f l f' l' u,
  (match a with LTree _ => false | _ => true end) = true -> leaf_piece f l a u -> leaf_piece f' l' a u.
Proof. intros a f l f' l' u Ha H. destruct a; try discriminate; exact H. Qed.

Lemma flatmatch_nil : forall f l w, FlatMatch f l [] w <-> w = [].
Proof. intros f l w. split; [intros H; inversion H; reflexivity|intros ->; constructor]. Qed.

Lemma flatmatch_single : forall f l a w, FlatMatch f l [a] w <-> leaf_piece f l a w.
Proof.
  intros f l a w. split.
  - intros H. inversion H as [|f0 l0 a0 x0 u v Hp Hrest]; subst. inversion Hrest; subst.
    rewrite app_nil_r. cbn [is_nil] in Hp. rewrite andb_true_r in Hp. exact Hp.
  - intros H. rewrite <- (app_nil_r w). constructor; [|constructor]. cbn [is_nil]. rewrite andb_true_r. exact H.
Qed.

(* a sequence in two parts: the first part is last, and the second first, only if the other part is empty *)
Lemma flatmatch_app : forall x y f l w,
  FlatMatch f l (x ++ y) w <->
  exists u v, w = u ++ v /\ FlatMatch f (l && is_nil y) x u /\ FlatMatch (f && is_nil x) l y v.
Proof.
  induction x as [|a x IH]; intros y f l w.
  - cbn [app is_nil]. rewrite andb_true_r. split.
    + intros H. exists [], w. split; [reflexivity|]. split; [constructor|exact H].
    + intros [u [v [-> [Hu Hv]]]]. apply flatmatch_nil in Hu. subst u. exact Hv.
  - cbn [app is_nil]. rewrite andb_false_r. split.
    + intros H. inversion H as [|f0 l0 a0 x0 u v Hp Hrest]; subst. rewrite andb_is_nil_app in Hp.
      apply IH in Hrest. destruct Hrest as [u1 [v1 [-> [H1 H2]]]].
      exists (u ++ u1), v1. split; [apply app_assoc|]. split; [constructor; assumption|exact H2].
    + intros [u [v [-> [Hu Hv]]]]. inversion Hu as [|f0 l0 a0 x0 u0 v0 Hp Hrest]; subst.
      rewrite <- app_assoc. constructor; [rewrite andb_is_nil_app; exact Hp|].
      apply IH. exists v0, v. split; [reflexivity|]. split; [exact Hrest|exact Hv].
Qed.

Lemma flatmatch_extend_last_tree :
  forall x f r w z, FlatMatch f true (x ++ [LTree r]) w -> FlatMatch f true (x ++ [LTree r]) (w ++ SEP :: z).
Proof.
  induction x as [|a x IH]; intros f r w z H.
  - cbn [app] in *. inversion H as [|f0 l0 a0 x0 u v Hp Hrest]; subst.
    inversion Hrest; subst. rewrite app_nil_r.
    rewrite <- (app_nil_r (u ++ SEP :: z)). constructor; [|constructor].
    cbn [leaf_piece is_nil andb] in *. apply tree_piece_extend. exact Hp.
  - cbn [app] in *. inversion H as [|f0 l0 a0 x0 u v Hp Hrest]; subst.
    rewrite <- app_assoc. constructor; [exact Hp|]. apply IH. exact Hrest.
Qed.

End Matching.

Lemma expands_leaf : forall sp l x, Expands (TLeaf sp l) x <-> x = [l].
Proof. intros sp l x. split; [intros H; inversion H; reflexivity|intros ->; constructor]. Qed.

Lemma expands_alt : forall sp bs x, Expands (TAlt sp bs) x <-> exists b, In b bs /\ Expands b x.
Proof.
  intros sp bs x. split.
  - intros H. inversion H; subst. eexists. split; eassumption.
  - intros [b [Hin Hb]]. eapply E_alt; eassumption.
Qed.

Lemma expands_cat : forall sp ts x, Expands (TCat sp ts) x <-> exists xs, Forall2 Expands ts xs /\ x = concat xs.
Proof.
  intros sp ts x. split.
  - intros H. inversion H; subst. eexists. split; [eassumption|reflexivity].
  - intros [xs [HF ->]]. constructor. exact HF.
Qed.

Lemma expands_cat_nil : forall sp x, Expands (TCat sp []) x <-> x = [].
Proof.
  intros sp x. rewrite expands_cat. split.
  - intros [xs [HF ->]]. inversion HF. reflexivity.
  - intros ->. exists []. split; [constructor|reflexivity].
Qed.

Lemma expands_cat_cons : forall sp t ts z,
  Expands (TCat sp (t :: ts)) z <-> exists x y, Expands t x /\ Expands (TCat sp ts) y /\ z = x ++ y.
Proof.
  intros sp t ts z. rewrite expands_cat. split.
  - intros [xs [HF ->]]. inversion HF as [|? x ? xs' Hx HF']; subst.
    exists x, (concat xs'). split; [exact Hx|]. split; [constructor; exact HF'|reflexivity].
  - intros [x [y [Hx [Hy ->]]]]. apply expands_cat in Hy. destruct Hy as [xs [HF ->]].
    exists (x :: xs). split; [constructor; assumption|reflexivity].
Qed.

Lemma expands_cat_app : forall sp sp1 sp2 a b x,
  Expands (TCat sp (a ++ b)) x <-> exists xa xb, x = xa ++ xb /\ Expands (TCat sp1 a) xa /\ Expands (TCat sp2 b) xb.
Proof.
  intros sp sp1 sp2 a b x. rewrite expands_cat. split.
  - intros [xs [H ->]]. apply Forall2_app_inv_l in H. destruct H as [xa [xb [Ha [Hb ->]]]].
    exists (concat xa), (concat xb). split; [apply concat_app|]. split; constructor; assumption.
  - intros [xa [xb [-> [Ha Hb]]]]. apply expands_cat in Ha. apply expands_cat in Hb.
    destruct Ha as [xsa [Ha ->]]. destruct Hb as [xsb [Hb ->]]. exists (xsa ++ xsb). split; [apply Forall2_app; assumption|].
    symmetry. apply concat_app.
Qed.

Lemma expands_rep : forall sp b lo hi x,
  Expands (TRep sp b lo hi) x <-> exists xs, in_bounds (length xs) lo hi /\ Forall (Expands b) xs /\ x = concat xs.
Proof.
  intros sp b lo hi x. split.
  - intros H. inversion H; subst. eexists. split; [eassumption|]. split; [eassumption|reflexivity].
  - intros [xs [Hb [HF ->]]]. constructor; assumption.
Qed.

Lemma expands_nil_fnull : forall t, Expands t [] -> fnull t = true.
Proof.
  induction t as [sp l|sp bs IH|sp ts IH|sp b lo hi IH] using tok_ind'; intros H; cbn [fnull].
  - inversion H.
  - apply expands_alt in H. destruct H as [b [Hin Hb]]. apply existsb_exists. exists b. split; [exact Hin|].
    rewrite Forall_forall in IH. apply IH; assumption.
  - apply expands_cat in H. destruct H as [xs [HF Hc]]. symmetry in Hc.
    induction HF as [|t x ts xs Hx _ IHF]; [reflexivity|]. cbn [concat] in Hc. apply app_eq_nil in Hc. destruct Hc as [-> Hc].
    inversion IH as [|? ? IHt IHts]; subst. cbn [forallb]. rewrite (IHt Hx), (IHF IHts Hc). reflexivity.
  - apply expands_rep in H. destruct H as [xs [[Hlo _] [HF Hc]]]. destruct HF as [|x xs Hx _].
    + cbn in Hlo. replace lo with 0%N by lia. reflexivity.
    + symmetry in Hc. cbn [concat] in Hc. apply app_eq_nil in Hc. destruct Hc as [-> _]. rewrite (IH Hx). apply orb_true_r.
Qed.

Lemma certainty_fold : forall l a w, fold_left when_certainty l a = w -> w <> Sometimes -> a = w /\ Forall (fun u => u = w) l.
Proof.
  induction l as [|b l IH]; intros a w H Hw; [split; [exact H|constructor]|]. cbn [fold_left] in H. destruct (IH _ _ H Hw) as [H1 H2].
  assert (Hab : a = w /\ b = w) by (destruct a, b; cbn [when_certainty] in H1; try (exfalso; apply Hw; symmetry; exact H1); split; exact H1).
  destruct Hab as [-> ->]. split; [reflexivity|constructor; [reflexivity|exact H2]].
Qed.

Lemma reduce_certainty_always :
  forall ws, reduce_pure when_certainty ws = Some Always -> Forall (fun w => w = Always) ws.
Proof.
  intros [|w ws] H; [discriminate|]. injection H as H.
  destruct (certainty_fold ws w Always H ltac:(discriminate)) as [-> HF]. constructor; [reflexivity|exact HF].
Qed.

Lemma certainty_never : forall l, l <> [] -> Forall (fun w => w = Never) l -> reduce_pure when_certainty l = Some Never.
Proof.
  intros [|a l] Hne H; [congruence|]. inversion H as [|? ? Ha Hl]; subst. cbn [reduce_pure]. f_equal. clear Hne H.
  induction Hl as [|b l Hb _ IH]; [reflexivity|]. subst b. cbn [fold_left when_certainty]. exact IH.
Qed.

Lemma rep_range_inv_bounds : forall lo hi n, rep_range lo hi = Inv n -> lo = n /\ hi = Some n.
Proof.
  intros lo hi n H. destruct (fco_view lo hi) as [L U]. unfold rep_range in H. rewrite H in L, U. cbn [lo_of hi_of] in L, U.
  destruct hi as [h|]; [|discriminate]. injection U as U. split; [|f_equal]; lia.
Qed.

Lemma nr_lower_zero : forall lo hi, nr_lower (rep_range lo hi) = NBZero -> lo = 0 /\ hi = Some 0.
Proof.
  intros lo hi H. destruct (rep_range lo hi) as [n|[b|]] eqn:E; cbn [nr_lower] in H.
  - unfold nbound_of_n in H. destruct (N.eqb_spec n 0) as [->|]; [|discriminate]. exact (rep_range_inv_bounds lo hi 0 E).
  - destruct b; discriminate.
  - discriminate.
Qed.

Lemma nr_lower_num : forall hi n, nr_lower (rep_range 0 hi) <> NBNum n.
Proof. intros hi n. unfold rep_range, from_closed_open. destruct hi as [[|h]|]; cbn; discriminate. Qed.

(* [ends_tree t]: every expansion of t is non-empty and ends with a tree wildcard *)
Fixpoint ends_tree (t : tok) : bool :=
  match t with
  | TLeaf _ (LTree _) => true
  | TLeaf _ _ => false
  | TAlt _ bs => forallb ends_tree bs
  | TCat _ ts =>
      (fix go (l : list tok) : bool :=
         match l with
         | [] => false
         | [x] => ends_tree x
         | _ :: l' => go l'
         end) ts
  | TRep _ b lo _ => ends_tree b && (1 <=? lo)
  end.

Lemma ends_tree_cat : forall sp ts,
  ends_tree (TCat sp ts) = match last_opt ts with Some x => ends_tree x | None => false end.
Proof.
  intros sp ts. cbn [ends_tree]. induction ts as [|t ts IH]; [reflexivity|].
  destruct ts as [|t' ts']; [reflexivity|]. exact IH.
Qed.

Lemma expands_ends_tree :
  forall t x, Expands t x -> ends_tree t = true -> exists x' r, x = x' ++ [LTree r].
Proof.
  assert (Hlast : forall (xs : list (list leaf)) xl, (exists x' r, xl = x' ++ [LTree r]) ->
            exists x' r, concat (xs ++ [xl]) = x' ++ [LTree r]).
  { intros xs xl [x' [r ->]]. exists (concat xs ++ x'), r. rewrite concat_snoc. apply app_assoc. }
  induction t as [sp l|sp bs IH|sp ts IH|sp b lo hi IH] using tok_ind'; intros x Hx He.
  - apply expands_leaf in Hx. subst x. destruct l; try discriminate. exists [], root. reflexivity.
  - apply expands_alt in Hx. destruct Hx as [b [Hin Hb]]. cbn [ends_tree] in He.
    rewrite forallb_forall in He. rewrite Forall_forall in IH. exact (IH b Hin x Hb (He b Hin)).
  - apply expands_cat in Hx. destruct Hx as [xs [HF ->]]. rewrite ends_tree_cat in He.
    destruct (last_opt ts) as [tl|] eqn:El; [|discriminate].
    destruct (last_opt_some ts tl El) as [ts' ->].
    apply Forall2_app_inv_l in HF. destruct HF as [xs1 [xs2 [_ [H2 ->]]]].
    inversion H2 as [|? xl ? ? Hxl Hnil]; subst. inversion Hnil; subst.
    apply Hlast. apply Forall_app in IH. destruct IH as [_ IH]. inversion IH as [|? ? IHl _]; subst. exact (IHl xl Hxl He).
  - apply expands_rep in Hx. destruct Hx as [xs [[Hlo _] [HF ->]]]. cbn [ends_tree] in He.
    apply andb_prop in He. destruct He as [He Hlo']. apply N.leb_le in Hlo'.
    destruct xs as [|x0 xs _] using rev_ind; [cbn in Hlo; lia|].
    apply Hlast. apply Forall_app in HF. destruct HF as [_ HF]. inversion HF as [|? ? Hx0 _]; subst. exact (IH x0 Hx0 He).
Qed.

(* C09: a pattern that always ends in a tree wildcard matches, with a path, everything below it *)
Lemma ends_tree_exhaustive :
  forall orbit t p z, ends_tree t = true -> Lang orbit t p -> Lang orbit t (p ++ SEP :: z).
Proof.
  intros orbit t p z He [x [Hx Hm]]. destruct (expands_ends_tree t x Hx He) as [x' [r ->]].
  exists (x' ++ [LTree r]). split; [exact Hx|]. apply flatmatch_extend_last_tree. exact Hm.
Qed.

(* every concatenation and alternation of the tree has at least one element (true of parsed trees), and no repetition is
   bounded 0,0: such a token expands to nothing, yet [has_root_fold] reports the rootedness of its body ([nr_lower_zero],
   used in [always_root_first_rooting]) *)
Fixpoint nonempty_branches (t : tok) : bool :=
  match t with
  | TLeaf _ _ => true
  | TAlt _ bs => negb (is_nil bs) && forallb nonempty_branches bs
  | TCat _ ts => negb (is_nil ts) && forallb nonempty_branches ts
  | TRep _ b lo hi =>
      nonempty_branches b && negb ((lo =? 0) && match hi with Some h => h =? 0 | None => false end)
  end.

Lemma nonempty_branches_alt : forall sp bs,
  nonempty_branches (TAlt sp bs) = true <-> bs <> [] /\ Forall (fun b => nonempty_branches b = true) bs.
Proof. intros sp bs. cbn [nonempty_branches]. rewrite andb_true_iff, is_nil_false, forallb_Forall. reflexivity. Qed.

Lemma nonempty_branches_cat : forall sp ts,
  nonempty_branches (TCat sp ts) = true <-> ts <> [] /\ Forall (fun t => nonempty_branches t = true) ts.
Proof. intros sp ts. cbn [nonempty_branches]. rewrite andb_true_iff, is_nil_false, forallb_Forall. reflexivity. Qed.

Lemma nonempty_branches_rep : forall sp b lo hi,
  nonempty_branches (TRep sp b lo hi) = true <-> nonempty_branches b = true /\ ~ (lo = 0 /\ hi = Some 0).
Proof.
  intros sp b lo hi. cbn [nonempty_branches]. rewrite andb_true_iff, negb_true_iff.
  assert (E : (lo =? 0) && match hi with Some h => h =? 0 | None => false end = true <-> lo = 0 /\ hi = Some 0).
  { rewrite andb_true_iff, N.eqb_eq. destruct hi as [h|]; [rewrite N.eqb_eq|]; split; intros [Hl Hh]; split; congruence. }
  rewrite <- E, not_true_iff_false. reflexivity.
Qed.

Lemma has_root_fold_cat : forall sp t0 ts, has_root_fold (TCat sp (t0 :: ts)) = has_root_fold t0.
Proof. intros sp t0 ts. cbn [has_root_fold]. destruct (has_root_fold t0); reflexivity. Qed.

Lemma has_root_fold_some : forall t, nonempty_branches t = true -> exists w, has_root_fold t = Some w.
Proof.
  induction t as [sp l|sp bs IH|sp ts IH|sp b lo hi IH] using tok_ind'; intros Hn.
  - eexists. reflexivity.
  - apply nonempty_branches_alt in Hn. destruct Hn as [Hne Hall].
    destruct bs as [|b bs]; [congruence|]. cbn [has_root_fold flat_map].
    inversion IH as [|? ? Hb _]; subst. inversion Hall as [|? ? Hnb _]; subst.
    destruct (Hb Hnb) as [w ->]. cbn [opt_list app reduce_pure]. eexists. reflexivity.
  - apply nonempty_branches_cat in Hn. destruct Hn as [Hne Hall].
    destruct ts as [|t0 ts]; [congruence|]. rewrite has_root_fold_cat.
    inversion IH as [|? ? Hb _]; subst. inversion Hall as [|? ? Hnb _]; subst. exact (Hb Hnb).
  - apply nonempty_branches_rep in Hn. destruct Hn as [Hn _].
    cbn [has_root_fold]. destruct (IH Hn) as [w ->].
    destruct (nr_lower (rep_range lo hi)); eexists; reflexivity.
Qed.

Lemma alt_never : forall sp bs, bs <> [] -> Forall (fun b => has_root_fold b = Some Never) bs -> has_root_fold (TAlt sp bs) = Some Never.
Proof.
  intros sp bs Hne H. cbn [has_root_fold]. apply certainty_never.
  - destruct bs as [|b0 bs']; [congruence|]. inversion H as [|? ? H0 _]; subst. cbn [flat_map]. rewrite H0. discriminate.
  - rewrite Forall_forall in *. intros w Hw. apply in_flat_map in Hw. destruct Hw as [b [Hin Hw]]. rewrite (H b Hin) in Hw.
    destruct Hw as [<-|[]]. reflexivity.
Qed.

(* the expansion begins with a leaf that only matches at a separator *)
Definition first_rooting (x : list leaf) : bool :=
  match x with
  | LSep :: _ => true
  | LTree true :: _ => true
  | _ => false
  end.

Lemma first_rooting_app : forall x y, first_rooting x = true -> first_rooting (x ++ y) = true.
Proof. intros [|a x] y H; [discriminate|exact H]. Qed.

Lemma flatmatch_first_rooting :
  forall orbit x l w, FlatMatch orbit true l x w -> first_rooting x = true -> starts_sep w = true.
Proof.
  intros orbit x l w H Hr. inversion H as [|f0 l0 a x0 u v Hp Hrest]; subst; [discriminate|].
  destruct a as [| | | | |[]]; try discriminate; cbn [leaf_piece] in Hp.
  - subst u. reflexivity.
  - apply starts_sep_app. destruct (l && is_nil x0); [rewrite tree_piece_only in Hp|rewrite tree_piece_first in Hp].
    + exact Hp.
    + apply andb_prop in Hp. apply Hp.
Qed.

Lemma always_root_first_rooting :
  forall t x, nonempty_branches t = true -> has_root_fold t = Some Always -> Expands t x -> first_rooting x = true.
Proof.
  induction t as [sp l|sp bs IH|sp ts IH|sp b lo hi IH] using tok_ind'; intros x Hn Hr Hx.
  - apply expands_leaf in Hx. subst x. cbn [has_root_fold] in Hr. destruct l as [| | | | |[]]; try discriminate; reflexivity.
  - apply expands_alt in Hx. destruct Hx as [b [Hin Hb]].
    apply nonempty_branches_alt in Hn. destruct Hn as [_ Hall].
    cbn [has_root_fold] in Hr. apply reduce_certainty_always in Hr.
    rewrite Forall_forall in IH, Hr, Hall.
    destruct (has_root_fold_some b (Hall b Hin)) as [w Hw].
    apply (IH b Hin x (Hall b Hin)); [|exact Hb].
    rewrite Hw. f_equal. apply Hr. apply in_flat_map. exists b. split; [exact Hin|]. rewrite Hw. left. reflexivity.
  - apply expands_cat in Hx. destruct Hx as [xs [HF ->]].
    apply nonempty_branches_cat in Hn. destruct Hn as [_ Hall].
    destruct HF as [|t0 x0 ts xs Hx0 _]; [discriminate|].
    rewrite has_root_fold_cat in Hr. inversion Hall as [|? ? Hn0 _]; subst.
    cbn [concat]. apply first_rooting_app. inversion IH as [|? ? H0 _]; subst. apply (H0 x0 Hn0 Hr Hx0).
  - apply expands_rep in Hx. destruct Hx as [xs [[Hlo _] [HF ->]]].
    apply nonempty_branches_rep in Hn. destruct Hn as [Hn Hb0]. cbn [has_root_fold] in Hr.
    destruct (has_root_fold b) as [w|] eqn:Hw; [|discriminate].
    destruct (nr_lower (rep_range lo hi)) eqn:El.
    + apply nr_lower_zero in El. contradiction.
    + destruct w; discriminate.
    + inversion Hr; subst.
      (* lower bound >= 1: there is a first iteration *)
      destruct HF as [|x0 xs Hx0 _].
      * assert (lo = 0) by (cbn in Hlo; lia). subst lo. destruct (nr_lower_num _ _ El).
      * cbn [concat]. apply first_rooting_app. apply (IH x0 Hn eq_refl Hx0).
Qed.

(* C12: a pattern that reports "always rooted" only matches paths that begin with a separator *)
Lemma root_sound :
  forall orbit t p, nonempty_branches t = true -> has_root t = Always -> Lang orbit t p -> starts_sep p = true.
Proof.
  intros orbit t p Hn Hr [x [Hx Hm]]. unfold has_root in Hr.
  destruct (has_root_fold t) as [w|] eqn:Hw; [|discriminate]. subst w.
  eapply flatmatch_first_rooting; [exact Hm|]. eapply always_root_first_rooting; eassumption.
Qed.
