(* RepClosed.v -- the theorems of C09 and C10 about repetitions with their adjacency hypotheses discharged: for globs that build and
   whose repetitions are written out at least once with a body that begins and ends with a leaf, the rule checker guarantees every
   expansion (RuleAdjRep, RuleZomRep), so the verdicts are sound for every match, not per expansion. *)
From WaxModel Require Import Base Token Spec Variance Fold Glob.
From WaxProofs Require Import ParseShape RuleFacts DepthFacts BuiltNonempty DepthRepFacts.
From WaxProofs Require Import ExhaustRepFacts ExhaustOptFacts BuiltDepth.
From WaxProofs Require Import RuleZomRep.

(* C09: an `Always` verdict is sound - outside the known classes trailing_boundary (may_end_sep) and optional_repetition (required_reps) *)
Theorem built_required_reps_always_sound_unconditionally : forall orbit e t r p z,
  build e = BuildOk t r -> required_reps t = true -> rep_class t = true -> shz t = true ->
  is_exhaustive t = Ok Always -> may_end_sep t = false -> nosep z = true ->
  Lang orbit t p -> Lang orbit t (p ++ SEP :: z).
Proof.
  intros orbit e t r p z Hb Hrq Hrc Hz He Hms Hnz [x [Hx Hm]].
  exists x. split; [exact Hx|].
  apply (built_required_reps_always_sound orbit e t r p z x Hb Hrq He Hnz Hx).
  - exact (built_no_adjacent_boundaries_r e t r Hb Hrc x Hx).
  - exact (built_no_adjacent_zoms_r e t r Hb Hrc Hz x Hx).
  - exact (no_trailing_sep_r t (built_nonempty_branches e t r Hb) (sh_shr t (built_sh e t r Hb) Hrc) Hms x Hx).
  - exact Hm.
Qed.

(* C10: the depth variance contains the component count of every match *)
Theorem built_rep_depth_sound_lang : forall (orbit : char -> list char), (forall c d, In d (orbit c) -> d <> SEP) ->
  forall e t r v p,
  build e = BuildOk t r -> simple_reps t = true -> rep_class t = true ->
  depth_variance t = Ok v -> depth_closed_variant t = false ->
  Lang orbit t p -> canonical p = true -> (1 <= ncomp p)%N ->
  (forall x, Expands t x -> FlatMatch orbit true true x p -> starts_sep p = (match x with a :: _ => leaf_is_rooting a | [] => false end)) ->
  in_variance (ncomp p) v.
Proof.
  intros orbit Ho e t r v p Hb Hs Hrc Hv Hcv [x [Hx Hm]] Hcan Hn Hroot.
  exact (built_rep_depth_sound orbit Ho e t r v p x Hb Hs Hv Hcv Hx Hm (built_no_adjacent_boundaries_r e t r Hb Hrc x Hx) Hcan Hn (Hroot x Hx Hm)).
Qed.
