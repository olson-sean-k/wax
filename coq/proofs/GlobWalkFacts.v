(* GlobWalkFacts.v -- C02 end to end in the model: the walk of a glob, with the component programs the encoder builds for
   it, yields exactly the entries the complete program matches - for every glob whose literals are separator-free (every
   glob the parser produces), every directory tree with valid names, every engine that decides the regular languages. *)
From Coq Require Import Arith.
From WaxModel Require Import Base Token Regex Spec Encode Query Walk.
From WaxProofs Require Import WalkFacts TextFacts PruneFacts.
Local Open Scope nat_scope.

(* every name in the tree is non-empty and separator-free (what a file system guarantees) *)
Fixpoint names_valid (n : node) : Prop :=
  match n with
  | NDir kids => (fix go (ks : list (name * node)) : Prop :=
                    match ks with [] => True | k :: ks' => valid_name (fst k) /\ names_valid (snd k) /\ go ks' end) kids
  | _ => True
  end.

Lemma names_valid_dir : forall kids,
  names_valid (NDir kids) <-> Forall (fun k => valid_name (fst k) /\ names_valid (snd k)) kids.
Proof.
  intros kids. cbn [names_valid]. induction kids as [|k ks IH]; [split; constructor|].
  rewrite Forall_cons_iff, <- IH. tauto.
Qed.

Lemma all_entries_valid : forall n p q, names_valid n -> Forall valid_name p -> In q (all_entries p n) -> Forall valid_name q.
Proof.
  induction n as [|kids IH| |] using node_ind'; intros p q Hn Hp H.
  - destruct H as [<-|[]]. exact Hp.
  - rewrite all_entries_dir in H. destruct H as [<-|H]; [exact Hp|]. apply in_flat_map in H as (k & Hk & H).
    rewrite names_valid_dir, Forall_forall in Hn. destruct (Hn k Hk) as [Hv Hnk].
    rewrite Forall_forall in IH. apply (IH k Hk (p ++ [fst k])); [exact Hnk| |exact H].
    apply Forall_app. split; [exact Hp|constructor; [exact Hv|constructor]].
  - destruct H as [<-|[]]. exact Hp.
  - contradiction.
Qed.

Lemma Forall2_nth_error : forall {A B} (R : A -> B -> Prop) l l', Forall2 R l l' ->
  forall i a, nth_error l i = Some a -> exists b, nth_error l' i = Some b /\ R a b.
Proof.
  intros A B R l l' H. induction H as [|a0 b0 l l' H0 _ IH]; intros [|i] a Hi; try discriminate.
  - inversion Hi; subst. exists b0. auto.
  - apply IH, Hi.
Qed.

Section GlobWalkComplete.
Variable orbit : char -> list char.
Hypothesis orbit_nosep : forall c d, In d (orbit c) -> d <> SEP.
Variable t : tok.
Hypothesis Hlits : lits_nosep t = true.
(* the matching engine decides the language of the programs it is given (the regex crate: trusted, tied by the correspondence) *)
Variable complete : str -> bool.
Hypothesis Hcomplete : forall w, complete w = true <-> sem orbit (encode t) w.
Variable progs : list (name -> bool).
Hypothesis Hprogs : Forall2 (fun (pr : name -> bool) r => forall w, pr w = true <-> sem orbit r w) progs (component_programs t).
Variable prefix : rpath.
Hypothesis Hprefix : Forall valid_name prefix.

Lemma prune_holds : forall rel, Forall valid_name rel -> complete (join_path rel) = true ->
  forall i c pr, nth_error rel i = Some c -> nth_error progs i = Some pr -> pr c = true.
Proof.
  intros rel Hv Hc i c pr Hi Hp. apply Hcomplete in Hc. unfold component_programs in Hprogs.
  destruct (tok_is_empty t); [inversion Hprogs; subst; destruct i; discriminate|].
  destruct (Forall2_nth_error _ _ _ Hprogs i pr Hp) as (r & Hr & Hpr). rewrite nth_error_map in Hr.
  destruct (nth_error (take_until_boundary (components (concatenation t))) i) as [comp|] eqn:Hcomp; [|discriminate].
  inversion Hr; subst r. apply Hpr. eapply prune_sound; eassumption.
Qed.

(* C02: the walk yields exactly the entries whose path (below the directory given) the complete program matches, in
   pre-order, each once *)
Theorem glob_walk_complete : forall root, names_valid root ->
  yields (walk 0 None [glob_layer prefix progs complete] root) = filter (keeps prefix progs complete) (all_entries [] root).
Proof.
  intros root Hroot. rewrite walk_refines.
  apply (glob_walk_yields prefix progs complete (Forall valid_name) prune_holds root 0 []).
  intros q Hq. apply Forall_app. split; [exact Hprefix|]. eapply all_entries_valid; [exact Hroot|constructor|exact Hq].
Qed.

End GlobWalkComplete.

(* the conditional form: for arbitrary programs, given pruning soundness on every path *)
Lemma glob_walk_given_pruning : forall prefix (progs : list (name -> bool)) (complete : str -> bool),
  (forall rel, complete (join_path rel) = true ->
     forall i c pr, nth_error rel i = Some c -> nth_error progs i = Some pr -> pr c = true) ->
  forall root,
    yields (walk 0 None [glob_layer prefix progs complete] root) = filter (keeps prefix progs complete) (all_entries [] root).
Proof.
  intros prefix progs complete H root. rewrite walk_refines.
  apply (glob_walk_yields prefix progs complete (fun _ => True) (fun rel _ => H rel) root 0 []). intros; exact I.
Qed.

(* C15: every entry a glob walk produces lies inside the configured window, measured from the directory given to the walk: its
   depth is the number of prefix components (the pivot) plus its depth below the directory the walk starts at.  The upper
   bound holds when the window reaches the pivot at all (below it the implementation still yields the starting directory:
   the known class max_below_prefix). *)
Theorem glob_walk_in_window : forall root prefix_text mind maxd progs complete rest e t s,
  In (REntry e t s) (glob_walk root prefix_text mind maxd progs complete rest) ->
  let pivot := length (split_components prefix_text) in
  mind <= pivot + length (e_path e) /\
  match maxd with Some m => pivot <= m -> pivot + length (e_path e) <= m | None => True end.
Proof.
  intros root prefix_text mind maxd progs complete rest e t s H pivot. unfold glob_walk, window_at_pivot in H. fold pivot in H.
  rewrite walk_refines in H. unfold walk_spec in H.
  apply entry_in_spec in H as (r & -> & _ & Hm & Ho). cbn [app Nat.add] in *. split; [lia|].
  destruct maxd as [m|]; [|exact I]. intros Hp. specialize (Ho eq_refl). cbn [over] in Ho. apply Nat.ltb_ge in Ho. lia.
Qed.

(* sibling names are distinct (a file system guarantees it) *)
Fixpoint names_unique (n : node) : Prop :=
  match n with
  | NDir kids => NoDup (map fst kids) /\
                 (fix go (ks : list (name * node)) : Prop := match ks with [] => True | k :: ks' => names_unique (snd k) /\ go ks' end) kids
  | _ => True
  end.

(* a trap: `WalkFacts.strip` (on items, C16) is another function; the file imported last owns the bare name *)
Fixpoint strip (prefix q : rpath) : option rpath :=
  match prefix, q with
  | [], _ => Some q
  | c :: p', d :: q' => if str_eqb c d then strip p' q' else None
  | _ :: _, [] => None
  end.

(* the entries that lie at or below [prefix], relative to it, in order *)
Definition below (prefix : rpath) (l : list rpath) : list rpath :=
  flat_map (fun q => match strip prefix q with Some r => [r] | None => [] end) l.

Lemma names_unique_dir : forall kids,
  names_unique (NDir kids) <-> NoDup (map fst kids) /\ Forall (fun k => names_unique (snd k)) kids.
Proof.
  intros kids. cbn [names_unique]. apply and_iff_compat_l. induction kids as [|k ks IH]; [split; constructor|].
  rewrite Forall_cons_iff, <- IH. reflexivity.
Qed.

Lemma below_nil : forall l, below [] l = l.
Proof. intros l. unfold below. cbn [strip]. induction l as [|q l IH]; [reflexivity|]. cbn [flat_map app]. f_equal. exact IH. Qed.

Lemma below_app : forall prefix a b, below prefix (a ++ b) = below prefix a ++ below prefix b.
Proof. intros. unfold below. apply flat_map_app. Qed.

Lemma below_cons_map : forall c p' d l, below (c :: p') (map (cons d) l) = if str_eqb c d then below p' l else [].
Proof.
  intros c p' d l. unfold below. induction l as [|q l IH]; [destruct (str_eqb c d); reflexivity|].
  cbn [map flat_map]. rewrite IH. cbn [strip]. destruct (str_eqb c d); reflexivity.
Qed.

Lemma below_kids : forall c p' (kids : list (name * node)), NoDup (map fst kids) ->
  below (c :: p') (flat_map (fun k => all_entries [fst k] (snd k)) kids) =
  match find (fun k => str_eqb (fst k) c) kids with Some k => below p' (all_entries [] (snd k)) | None => [] end.
Proof.
  (* `find` in `lookup` is typed over `str * node`, `kids` over `name * node`: `unfold name` makes `rewrite` and
     `destruct (find _ _)` see one term (here and in `lookup_entries`) *)
  intros c p' kids Hnd. unfold name in *. induction kids as [|k ks IH]; [reflexivity|]. inversion Hnd as [|? ? Hk Hnd']; subst.
  cbn [flat_map find]. rewrite below_app, (all_entries_shift (snd k) [fst k]), (IH Hnd'). cbn [app]. rewrite below_cons_map.
  destruct (str_eqb_spec (fst k) c) as [<-|Hne].
  - rewrite str_eqb_refl. destruct (find _ ks) as [k'|] eqn:Ef; [|apply app_nil_r].
    apply find_some in Ef as [Hin E]. apply str_eqb_eq in E. exfalso. apply Hk. rewrite <- E. apply in_map, Hin.
  - destruct (str_eqb_spec c (fst k)) as [->|_]; [congruence|reflexivity].
Qed.

Theorem lookup_entries : forall prefix root, names_unique root ->
  below prefix (all_entries [] root) = all_entries [] (lookup root prefix).
Proof.
  induction prefix as [|c p' IH]; intros root Hu; [apply below_nil|].
  destruct root as [|kids| |]; cbn [lookup]; try reflexivity.
  apply names_unique_dir in Hu as [Hnd Hkids]. rewrite all_entries_dir. cbn [app].
  change (below (c :: p') ([] :: ?l)) with (below (c :: p') l). rewrite (below_kids c p' kids Hnd). unfold name in *.
  destruct (find _ kids) as [k|] eqn:Ef; [|reflexivity]. apply find_some in Ef as [Hk _].
  rewrite Forall_forall in Hkids. apply IH, Hkids, Hk.
Qed.

Lemma nosep_rev : forall s, nosep (rev s) = nosep s.
Proof.
  induction s as [|c s IH]; [reflexivity|]. cbn [rev]. rewrite nosep_app. cbn [nosep forallb]. fold (nosep s). rewrite IH.
  destruct (negb (c =? SEP)%N), (nosep s); reflexivity.
Qed.

Lemma rev_valid : forall cur, is_nil cur = false -> nosep cur = true -> valid_name (rev cur).
Proof.
  intros cur Hn Hc. split; [|rewrite nosep_rev; exact Hc].
  intros H. apply (f_equal (@length char)) in H. rewrite rev_length in H. destruct cur; discriminate.
Qed.

Lemma split_aux_valid : forall s cur, nosep cur = true -> Forall valid_name (split_aux s cur).
Proof.
  induction s as [|c s IH]; intros cur Hc; cbn [split_aux].
  - destruct (is_nil cur) eqn:E; [constructor|]. constructor; [apply rev_valid; assumption|constructor].
  - destruct (N.eqb_spec c SEP) as [->|Hne].
    + destruct (is_nil cur) eqn:E; [apply IH; reflexivity|]. constructor; [apply rev_valid; assumption|apply IH; reflexivity].
    + apply IH. cbn [nosep forallb]. fold (nosep cur). rewrite Hc. apply N.eqb_neq in Hne. rewrite Hne. reflexivity.
Qed.

Lemma lookup_valid : forall p root, names_valid root -> names_valid (lookup root p).
Proof.
  induction p as [|c p IH]; intros root H; [exact H|]. destruct root as [|kids| |]; cbn [lookup]; try exact I.
  destruct (find (fun k => str_eqb (fst k) c) kids) as [k|] eqn:Ef; [|exact I]. apply find_some in Ef as [Hk _].
  rewrite names_valid_dir, Forall_forall in H. apply IH, (H k Hk).
Qed.

Section PrefixedGlobWalk.
Variable orbit : char -> list char.
Hypothesis orbit_nosep : forall c d, In d (orbit c) -> d <> SEP.
Variable t : tok.
Hypothesis Hlits : lits_nosep t = true.
Variable complete : str -> bool.
Hypothesis Hcomplete : forall w, complete w = true <-> sem orbit (encode t) w.
Variable progs : list (name -> bool).
Hypothesis Hprogs : Forall2 (fun (pr : name -> bool) r => forall w, pr w = true <-> sem orbit r w) progs (component_programs t).

(* C02 for a glob with an invariant prefix: the walk starts at the directory the prefix names, below the directory given;
   what it yields - relative to that starting directory - are exactly the entries of the *whole* tree that lie at or below
   the prefix and that the complete program matches (their paths taken from the directory given) *)
Theorem prefixed_glob_walk_complete : forall root prefix_text,
  names_valid root -> names_unique root ->
  glob_walk_root root prefix_text = lookup root (split_components prefix_text) ->
  yields (glob_walk root prefix_text 0 None progs complete []) =
  filter (keeps (split_components prefix_text) progs complete) (below (split_components prefix_text) (all_entries [] root)).
Proof.
  intros root ptext Hv Hu Hroot. unfold glob_walk, window_at_pivot. cbn [Nat.sub]. rewrite Hroot.
  rewrite (glob_walk_complete orbit orbit_nosep t Hlits complete Hcomplete progs Hprogs (split_components ptext) (split_aux_valid ptext [] eq_refl)
             (lookup root (split_components ptext)) (lookup_valid _ _ Hv)).
  rewrite (lookup_entries (split_components ptext) root Hu). reflexivity.
Qed.

End PrefixedGlobWalk.
