(* ContiguousFacts.v -- the arithmetic behind the 13th repair: a non-zero depth term that the exhaustiveness fold multiplies by an unbounded
   range (`nvar_contiguous`: zero, one, or no upper bound and a lower bound of at most one) admits depth 1 (`contiguous_reaches_one`),
   which is what closes the depths reachable by repeating the body under successor (`contiguous_reach_S`); a term with gaps
   ({2, 4}: `<{*/*/,*/*/*/*/}:1,>`) is not closed (`gaps_not_closed`). *)
From WaxModel Require Import Base Variance Fold.
From WaxProofs Require Import RuleFacts.

(* a depth reachable by n copies of a body whose term has the members D *)
(* [RuleAdjFacts.reach] is another relation (on the items of the rule checker's queue): a file that imports both sees the one imported last *)
Inductive reach (D : list nvar) : nat -> N -> Prop :=
| reach_0 : reach D 0 0
| reach_S : forall n s d k, reach D n s -> In d D -> in_variance k d -> reach D (S n) (s + k).

Lemma contiguous_reaches_one : forall v, nvar_contiguous v = true -> v <> Inv 0 -> in_variance 1 v.
Proof.
  intros [n|[[k|k|l e]|]] H Hz; cbn [nvar_contiguous in_variance] in *; try discriminate; try exact I.
  - apply Bool.orb_prop in H. destruct H as [H|H]; apply N.eqb_eq in H; subst; [congruence|reflexivity].
  - apply N.leb_le in H. exact H.
Qed.

Theorem contiguous_reach_S : forall D, forallb nvar_contiguous D = true -> (exists d, In d D /\ d <> Inv 0%N) ->
  forall n s, reach D n s -> reach D (S n) (s + 1)%N.
Proof.
  intros D Hc [d [Hin Hnz]] n s Hr. rewrite forallb_forall in Hc.
  exact (reach_S D n s d 1 Hr Hin (contiguous_reaches_one d (Hc d Hin) Hnz)).
Qed.

Lemma gaps_even : forall n s, reach [Inv 2; Inv 4] n s -> exists h, s = 2 * h.
Proof.
  intros n s H. induction H as [|n s d k _ [h ->] Hin Hk]; [exists 0; reflexivity|].
  destruct Hin as [<-|[<-|[]]]; cbn [in_variance] in Hk; subst k; [exists (h + 1)|exists (h + 2)]; lia.
Qed.

Example gaps_not_closed : reach [Inv 2; Inv 4] 1 2 /\ forall n, ~ reach [Inv 2; Inv 4] n 3.
Proof.
  split; [change 2%N with (0 + 2)%N; apply (reach_S [Inv 2%N; Inv 4%N] 0 0%N (Inv 2%N) 2%N (reach_0 _)); [left; reflexivity|reflexivity]|].
  intros n H. destruct (gaps_even n 3 H) as [h Hh]. lia.
Qed.

Example gaps_not_contiguous : exh_rep_finalizes (BDisj [(TOpen, Inv 2); (TOpen, Inv 4)]) = false /\ exh_rep_finalizes (BConj (TOpen, Var (Bounded (BBoth 3 1)))) = false /\
  exh_rep_finalizes (BConj (TClosed, Inv 1)) = true.
Proof. repeat split; reflexivity. Qed.
