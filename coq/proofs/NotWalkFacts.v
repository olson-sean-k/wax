(* NotWalkFacts.v -- C03 in the model: over a tree with valid names `not` yields exactly the entries of the underlying walk that the
   negation does not match (discarding whole trees is indistinguishable from filtering entry by entry) as soon as the promise of an
   exhaustive verdict (C09) holds on paths of valid names - over any tree, when it holds on every path; for negations whose
   exhaustive part ends in a tree wildcard the promise is discharged by SpecFacts.ends_tree_exhaustive through the conformance
   theorem. *)
From WaxModel Require Import Base Token Regex Spec Encode Walk.
From WaxProofs Require Import SpecFacts EncodeLang WalkFacts PruneFacts GlobWalkFacts.
Local Open Scope nat_scope.

Lemma not_walk_valid_names : forall ls (exh nonexh : option (str -> bool)),
  (forall p r, Forall valid_name (p ++ r) -> r <> [] -> opt_match exh (join_path p) = true -> matched exh nonexh (p ++ r) = true) ->
  forall mind maxd root, names_valid root ->
    yields (walk mind maxd (ls ++ [nl exh nonexh]) root) =
    filter (fun q => negb (matched exh nonexh q)) (yields (walk mind maxd ls root)).
Proof.
  intros ls exh nonexh H mind maxd root Hroot. rewrite !walk_refines.
  apply (not_walk_yields ls exh nonexh (Forall valid_name) H mind maxd root 0 []).
  intros q Hq. eapply all_entries_valid; [exact Hroot|constructor|exact Hq].
Qed.

Lemma not_walk_given_promise : forall ls (exh nonexh : option (str -> bool)),
  (forall p r, opt_match exh (join_path p) = true -> matched exh nonexh (p ++ r) = true) ->
  forall mind maxd root,
    yields (walk mind maxd (ls ++ [nl exh nonexh]) root) =
    filter (fun q => negb (matched exh nonexh q)) (yields (walk mind maxd ls root)).
Proof.
  intros ls exh nonexh H mind maxd root. rewrite !walk_refines.
  apply (not_walk_yields ls exh nonexh (fun _ => True) (fun p r _ _ => H p r) mind maxd root 0 []). intros; exact I.
Qed.

Section NotWalkComplete.
Variable orbit : char -> list char.
(* the exhaustive part of the negation: a token tree every expansion of which ends in a tree wildcard, in the class of the
   conformance theorem; run by an engine that decides its language *)
Variable tx : tok.
Hypothesis Hwf : wf_tok tx = true.
Hypothesis Hexact : trees_exact tx = true.
Hypothesis Hends : ends_tree tx = true.
Variable fx : str -> bool.
Hypothesis Hfx : forall w, fx w = true <-> sem orbit (encode tx) w.
(* the negation does not match the empty path (the directory given to the walk is not itself discarded) *)
Hypothesis Hroot : fx [] = false.
Variable nonexh : option (str -> bool).

(* the validity of the names is not needed here: the premise is the one `not_walk_valid_names` asks for *)
Lemma promise_holds : forall p r, Forall valid_name (p ++ r) -> r <> [] ->
  opt_match (Some fx) (join_path p) = true -> matched (Some fx) nonexh (p ++ r) = true.
Proof.
  intros p r Hv Hr Hm. cbn [opt_match] in Hm. destruct p as [|c p]; [cbn in Hm; congruence|].
  unfold matched. cbn [opt_match]. apply orb_true_iff. left. rewrite join_app by (discriminate || exact Hr).
  apply Hfx. apply (conformance orbit tx _ Hwf Hexact). apply ends_tree_exhaustive; [exact Hends|].
  apply (conformance orbit tx _ Hwf Hexact). apply Hfx. exact Hm.
Qed.

End NotWalkComplete.
