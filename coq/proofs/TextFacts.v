(* TextFacts.v -- C11: invariant text is the only text of the documented language ([text_unique] on expansions,
   [invariant_text_is_the_only_text] on the query and [Lang]), under the hypothesis [caseless_orbit] on the case tables. *)
From WaxModel Require Import Base Token Regex Spec Variance Fold.
From WaxProofs Require Import SpecFacts EncodeLang.

Section TextFacts.
Variable orbit : char -> list char.
Variable has_casing : char -> bool.
(* the one assumption about the two tables (checked over all code points on every run by the tie): a character that
   the code considers caseless is only folded to itself *)
Hypothesis caseless_orbit : forall c d, has_casing c = false -> In d (orbit c) -> d = c.

Notation FlatMatch := (Spec.FlatMatch orbit).

Lemma str_eqb_eq : forall a b, str_eqb a b = true -> a = b.
Proof.
  induction a as [|x a IH]; intros [|y b] H; try discriminate; [reflexivity|].
  cbn [str_eqb] in H. apply andb_prop in H. destruct H as [Hx Hr]. apply N.eqb_eq in Hx. subst. f_equal. apply IH. exact Hr.
Qed.

Lemma str_eqb_refl : forall s, str_eqb s s = true.
Proof. induction s as [|c s IH]; [reflexivity|]. cbn [str_eqb]. rewrite N.eqb_refl. exact IH. Qed.

Lemma text_eqb_refl : forall t, text_eqb t t = true.
Proof.
  induction t as [|f t IH]; [reflexivity|]. cbn [text_eqb]. rewrite IH, andb_true_r. destruct f; cbn [frag_eqb]; apply str_eqb_refl.
Qed.

Lemma text_eqb_string : forall a b, text_eqb a b = true -> text_to_string a = text_to_string b.
Proof.
  induction a as [|x a IH]; intros [|y b] H; try discriminate; [reflexivity|].
  cbn [text_eqb] in H. apply andb_prop in H. destruct H as [Hf Hr].
  unfold text_to_string. cbn [flat_map]. fold (text_to_string a) (text_to_string b). rewrite (IH b Hr). f_equal.
  destruct x, y; cbn [frag_eqb] in Hf; try discriminate; cbn [frag_str]; apply str_eqb_eq; exact Hf.
Qed.

Lemma text_to_string_app : forall a b, text_to_string (a ++ b) = text_to_string a ++ text_to_string b.
Proof. intros. unfold text_to_string. apply flat_map_app. Qed.

Lemma frag_conj_string : forall x y, text_to_string (frag_conj x y) = frag_str x ++ frag_str y.
Proof. intros [x|x] [y|y]; cbn; rewrite ?app_nil_r; reflexivity. Qed.

Lemma text_conj_string : forall a b, text_to_string (text_conj a b) = text_to_string a ++ text_to_string b.
Proof.
  intros a b. unfold text_conj. destruct (rev a) as [|e ra] eqn:Ea.
  - assert (a = []) by (rewrite <- (rev_involutive a), Ea; reflexivity). subst. destruct b; reflexivity.
  - assert (Ha : a = rev ra ++ [e]) by (rewrite <- (rev_involutive a), Ea; reflexivity).
    destruct b as [|s b'].
    + rewrite Ha. rewrite app_nil_r. reflexivity.
    + rewrite Ha. rewrite !text_to_string_app. rewrite frag_conj_string.
      unfold text_to_string at 3 4. cbn [flat_map]. rewrite app_nil_r. rewrite <- !app_assoc. reflexivity.
Qed.

Lemma repeat_list_string : forall a n, text_to_string (repeat_list a n) = concat (repeat (text_to_string a) n).
Proof.
  induction n as [|n IH]; [reflexivity|]. cbn [repeat_list repeat concat]. rewrite text_to_string_app, IH. reflexivity.
Qed.

Lemma lit_sem_caseless : forall s w, existsb has_casing s = false -> lit_sem orbit true s w -> w = s.
Proof.
  intros s w Hc H. induction H as [|c d s w Hm _ IH]; [reflexivity|].
  cbn [existsb] in Hc. apply orb_false_iff in Hc. destruct Hc as [Hc Hs].
  rewrite (IH Hs). f_equal. unfold lit_char_match in Hm. apply orb_prop in Hm. destruct Hm as [Hm|Hm].
  - apply N.eqb_eq in Hm. auto.
  - cbn [andb] in Hm. unfold mem in Hm. apply existsb_exists in Hm. destruct Hm as [x [Hin Hx]]. apply N.eqb_eq in Hx. subst x.
    apply (caseless_orbit c d Hc Hin).
Qed.

Lemma tvar_disj_inv : forall l r t, tvar_disj l r = Inv t -> l = Inv t /\ tvar_eqb l r = true.
Proof.
  intros l r t H. unfold tvar_disj in H. destruct (tvar_eqb l r) eqn:E; [subst; auto|].
  destruct l as [a|[[]|]], r as [b|[[]|]]; discriminate.
Qed.

Lemma fold_disj_inv : forall vs v t, fold_left tvar_disj vs v = Inv t -> v = Inv t /\ Forall (fun u => tvar_eqb (Inv t) u = true) vs.
Proof.
  induction vs as [|u vs IH]; intros v t H; cbn [fold_left] in H; [split; [exact H|constructor]|].
  apply IH in H. destruct H as [H HF]. apply tvar_disj_inv in H. destruct H as [-> He]. split; [reflexivity|].
  constructor; assumption.
Qed.

Lemma reduce_disj_inv : forall vs t, reduce_pure tvar_disj vs = Some (Inv t) -> Forall (fun u => tvar_eqb (Inv t) u = true) vs.
Proof.
  intros [|v vs] t H; [discriminate|]. cbn [reduce_pure] in H. injection H as H1.
  destruct (fold_disj_inv vs v t H1) as [Hv HF]. subst v. constructor; [|exact HF]. apply text_eqb_refl.
Qed.

Lemma tvar_eqb_inv_string : forall t u, tvar_eqb (Inv t) u = true -> exists t', u = Inv t' /\ text_to_string t' = text_to_string t.
Proof.
  intros t [t'|b] H; [|destruct b as [[]|]; discriminate]. exists t'. split; [reflexivity|].
  cbn [tvar_eqb] in H. symmetry. apply text_eqb_string. exact H.
Qed.

(* an archetype with invariant text holds one character *)
Lemma arch_text_inv : forall x t, arch_text x = Inv t -> exists c, text_to_string t = [c] /\ forall d, arch_in d x = true <-> d = c.
Proof.
  intros [c|lo hi] t H; cbn [arch_text arch_in] in *.
  - injection H as <-. exists c. split; [reflexivity|]. intros d. apply N.eqb_eq.
  - destruct (N.eqb_spec lo hi) as [->|]; [|discriminate]. injection H as <-. exists hi. split; [reflexivity|].
    intros d. rewrite andb_true_iff, !N.leb_le. lia.
Qed.

Lemma class_text_inv : forall a t c, reduce_pure tvar_disj (map arch_text a) = Some (Inv t) -> existsb (arch_in c) a = true ->
  text_to_string t = [c].
Proof.
  intros a t c H Hin. apply reduce_disj_inv in H. apply existsb_exists in Hin as [x [Hx Hc]].
  rewrite Forall_forall in H. specialize (H (arch_text x) (in_map arch_text a x Hx)).
  apply tvar_eqb_inv_string in H as [t' [Ht' <-]]. destruct (arch_text_inv x t' Ht') as [c' [-> Hin']].
  apply Hin' in Hc. subst. reflexivity.
Qed.

Lemma leaf_text_unique : forall l0 t f l w,
  text_leaf has_casing l0 = Inv t -> leaf_piece orbit f l l0 w -> w = text_to_string t.
Proof.
  intros l0 t f l w Ht Hp. destruct l0; cbn [text_leaf leaf_piece] in *.
  - destruct (ci && existsb has_casing s) eqn:E; [discriminate|]. inversion Ht; subst. cbn. rewrite app_nil_r.
    destruct ci; [|eapply lit_sem_exact; exact Hp]. cbn [andb] in E. apply lit_sem_caseless; assumption.
  - inversion Ht; subst. reflexivity.
  - destruct neg; [discriminate|]. destruct Hp as [c [-> Hc]]. unfold class_match in Hc. apply andb_prop in Hc.
    destruct Hc as [_ Hc]. cbn [xorb] in Hc.
    destruct (reduce_pure tvar_disj (map arch_text a)) as [v|] eqn:Er.
    + subst v. symmetry. apply (class_text_inv a t c Er). destruct (existsb (arch_in c) a); [reflexivity|discriminate].
    + destruct a; [cbn in Hc; discriminate|discriminate].
  - discriminate.
  - discriminate.
  - discriminate.
Qed.

Lemma tvar_conj_inv : forall l r t, tvar_conj l r = Inv t -> exists a b, l = Inv a /\ r = Inv b /\ t = text_conj a b.
Proof.
  intros [a|[[]|]] [b|[[]|]] t H; cbn in H; try discriminate. inversion H. eauto.
Qed.

Lemma fold_conj_var : forall vs b, exists b', fold_left tvar_conj vs (Var b) = Var b'.
Proof.
  induction vs as [|u vs IH]; intros b; cbn [fold_left]; [eexists; reflexivity|].
  destruct b as [[]|], u as [u|[[]|]]; cbn [tvar_conj]; apply IH.
Qed.

Lemma fold_conj_inv : forall vs a t, fold_left tvar_conj vs (Inv a) = Inv t ->
  exists ts, vs = map (fun x => Inv x) ts /\ text_to_string t = text_to_string a ++ concat (map text_to_string ts).
Proof.
  induction vs as [|v vs IH]; intros a t H; cbn [fold_left] in H.
  - inversion H; subst. exists []. split; [reflexivity|]. cbn. rewrite app_nil_r. reflexivity.
  - destruct (tvar_conj (Inv a) v) as [c|b] eqn:E.
    + apply tvar_conj_inv in E. destruct E as [a' [b' [Ha [-> ->]]]]. inversion Ha; subst a'.
      destruct (IH _ _ H) as [ts [-> Hs]]. exists (b' :: ts). split; [reflexivity|].
      rewrite Hs, text_conj_string. cbn [map concat]. rewrite <- app_assoc. reflexivity.
    + destruct (fold_conj_var vs b) as [b' Hb]. rewrite Hb in H. discriminate.
Qed.

Lemma flatmatchs_all : forall (P : list leaf -> str -> Prop) xs f l w,
  (forall x f' l' w', In x xs -> FlatMatch f' l' x w' -> P x w') ->
  FlatMatchs orbit f l xs w -> exists ws, w = concat ws /\ Forall2 P xs ws.
Proof.
  intros P. induction xs as [|x xs IH]; intros f l w HP H.
  - cbn [FlatMatchs] in H. subst. exists []. split; [reflexivity|constructor].
  - cbn [FlatMatchs] in H. destruct H as [u [v [-> [Hu Hv]]]].
    destruct (IH _ _ _ (fun x0 f' l' w' Hin => HP x0 f' l' w' (or_intror Hin)) Hv) as [ws [-> HF]].
    exists (u :: ws). split; [reflexivity|]. constructor; [|exact HF]. eapply HP; [left; reflexivity|exact Hu].
Qed.

Definition unique_text (t : tok) : Prop :=
  forall txt, text_fold has_casing t = Ok (Some (Inv txt)) ->
  forall x f l w, Expands t x -> FlatMatch f l x w -> w = text_to_string txt.

Definition has_term (t : tok) : Prop :=
  nonempty_branches t = true -> forall r, text_fold has_casing t = Ok r -> r <> None.

Lemma children_terms : forall ts rs, Forall has_term ts -> Forall (fun t => nonempty_branches t = true) ts ->
  rmapM (text_fold has_casing) ts = Ok rs ->
  Forall2 (fun t v => text_fold has_casing t = Ok (Some v)) ts (flat_map opt_list rs).
Proof.
  intros ts rs IH Hall Hr. apply rmapM_ok_forall2 in Hr. induction Hr as [|t r ts rs Hr _ IHr]; [constructor|].
  inversion IH as [|? ? IH0 IH']; subst. inversion Hall as [|? ? Hne0 Hall']; subst.
  destruct r as [v|]; [|exfalso; exact (IH0 Hne0 None Hr eq_refl)]. constructor; auto.
Qed.

Lemma text_fold_some : forall t, has_term t.
Proof.
  induction t as [sp l0|sp bs IH|sp ts IH|sp b lo hi IH] using tok_ind'; intros Hne r Hr.
  - cbn in Hr. inversion Hr. discriminate.
  - apply nonempty_branches_alt in Hne as [Hn Hall]. cbn [text_fold rbind] in Hr.
    destruct (rmapM (text_fold has_casing) bs) as [rs|] eqn:Er; [|discriminate]. injection Hr as <-.
    destruct (children_terms bs rs IH Hall Er); [congruence|discriminate].
  - apply nonempty_branches_cat in Hne as [Hn Hall]. cbn [text_fold rbind] in Hr.
    destruct (rmapM (text_fold has_casing) ts) as [rs|] eqn:Er; [|discriminate]. injection Hr as <-.
    destruct (children_terms ts rs IH Hall Er); [congruence|discriminate].
  - apply nonempty_branches_rep in Hne. destruct Hne as [Hn _].
    cbn [text_fold rbind] in Hr. destruct (text_fold has_casing b) as [r0|] eqn:E0; [|discriminate]. cbn [rbind] in Hr.
    destruct r0 as [v|]; [|exfalso; exact (IH Hn None E0 eq_refl)].
    destruct (tvar_product v (rep_range lo hi)); [|discriminate]. cbn [rbind] in Hr. inversion Hr. discriminate.
Qed.

(* an alternation or a concatenation of non-empty branches reduces one term per child *)
Lemma text_fold_list_inv : forall ts f o, Forall (fun t => nonempty_branches t = true) ts ->
  (do terms <- rmapM (text_fold has_casing) ts; Ok (reduce_pure f (flat_map opt_list terms))) = Ok o ->
  exists vs, Forall2 (fun t v => text_fold has_casing t = Ok (Some v)) ts vs /\ reduce_pure f vs = o.
Proof.
  intros ts f o Hall H. destruct (rmapM (text_fold has_casing) ts) as [terms|] eqn:Er; [|discriminate]. injection H as <-.
  exists (flat_map opt_list terms). split; [|reflexivity].
  apply children_terms; [apply Forall_forall; intros t _; apply text_fold_some|exact Hall|exact Er].
Qed.

Lemma reduce_conj_inv : forall vs t, reduce_pure tvar_conj vs = Some (Inv t) ->
  exists ts, vs = map (fun x => Inv x) ts /\ text_to_string t = concat (map text_to_string ts).
Proof.
  intros [|v vs] t H; [discriminate|]. cbn [reduce_pure] in H. injection H as H.
  destruct v as [a|b].
  - destruct (fold_conj_inv vs a t H) as [ts [-> Hs]]. exists (a :: ts). split; [reflexivity|exact Hs].
  - destruct (fold_conj_var vs b) as [b' Hb]. rewrite Hb in H. discriminate.
Qed.

Lemma text_fold_alt_inv : forall sp bs txt,
  nonempty_branches (TAlt sp bs) = true -> text_fold has_casing (TAlt sp bs) = Ok (Some (Inv txt)) ->
  Forall (fun b => exists t', text_fold has_casing b = Ok (Some (Inv t')) /\ text_to_string t' = text_to_string txt) bs.
Proof.
  intros sp bs txt Hne Ht. apply nonempty_branches_alt in Hne as [_ Hall].
  destruct (text_fold_list_inv bs _ _ Hall Ht) as [vs [HF Hred]]. apply reduce_disj_inv in Hred. rewrite Forall_forall in Hred.
  apply Forall_forall. intros b Hin. destruct (forall2_in_l _ _ _ _ HF Hin) as [v [Hv Hb]].
  destruct (tvar_eqb_inv_string txt v (Hred v Hv)) as [t' [-> Hs]]. eauto.
Qed.

Lemma text_fold_cat_inv : forall sp ts txt,
  nonempty_branches (TCat sp ts) = true -> text_fold has_casing (TCat sp ts) = Ok (Some (Inv txt)) ->
  exists tl, Forall2 (fun t t' => text_fold has_casing t = Ok (Some (Inv t'))) ts tl /\
             text_to_string txt = concat (map text_to_string tl).
Proof.
  intros sp ts txt Hne Ht. apply nonempty_branches_cat in Hne as [_ Hall].
  destruct (text_fold_list_inv ts _ _ Hall Ht) as [vs [HF Hred]]. apply reduce_conj_inv in Hred as [tl [-> Hs]].
  exists tl. split; [|exact Hs]. clear Hs Ht Hall. revert tl HF.
  induction ts as [|t ts IH]; intros [|t1 tl] HF; inversion HF; subst; constructor; auto.
Qed.

Lemma text_fold_rep_inv : forall sp b lo hi txt,
  nonempty_branches (TRep sp b lo hi) = true -> text_fold has_casing (TRep sp b lo hi) = Ok (Some (Inv txt)) ->
  exists a, hi = Some lo /\ text_fold has_casing b = Ok (Some (Inv a)) /\
            text_to_string txt = concat (repeat (text_to_string a) (N.to_nat lo)).
Proof.
  intros sp b lo hi txt Hne Ht. apply nonempty_branches_rep in Hne. destruct Hne as [_ Hb0].
  cbn [text_fold rbind] in Ht. destruct (text_fold has_casing b) as [[v|]|]; try discriminate. cbn [rbind] in Ht.
  destruct (tvar_product v (rep_range lo hi)) as [y|] eqn:Ep; [|discriminate]. injection Ht as ->.
  unfold tvar_product in Ep. destruct (rep_range lo hi) as [n|rb] eqn:Er.
  - destruct (rep_range_inv_bounds lo hi n Er) as [-> ->].
    destruct (N.eqb_spec n 0) as [->|Hn0]; [exfalso; apply Hb0; split; reflexivity|].
    destruct v as [a|[[]|]]; [|discriminate..]. unfold text_repeated, rbind in Ep.
    destruct (cmul (n - 1) (N.of_nat (length a))); [|discriminate]. injection Ep as <-.
    exists a. rewrite repeat_list_string. auto.
  - destruct v as [a|[[]|]], rb as [rb'|]; discriminate.
Qed.

Lemma text_variance_fold : forall t txt,
  nonempty_branches t = true -> text_variance has_casing t = Ok (Inv txt) -> text_fold has_casing t = Ok (Some (Inv txt)).
Proof.
  intros t txt Hne Hv. unfold text_variance, rbind in Hv. destruct (text_fold has_casing t) as [r|] eqn:E; [|discriminate].
  destruct r as [v|]; [|exfalso; exact (text_fold_some t Hne None E eq_refl)]. injection Hv as ->. reflexivity.
Qed.

Lemma flatmatchs_strings : forall xs ss,
  Forall2 (fun (x : list leaf) (s : str) => forall f' l' w', FlatMatch f' l' x w' -> w' = s) xs ss ->
  forall f l w, FlatMatchs orbit f l xs w -> w = concat ss.
Proof.
  intros xs ss H. induction H as [|x s xs ss Hx _ IH]; intros f l w Hm.
  - exact Hm.
  - cbn [FlatMatchs] in Hm. destruct Hm as [u [v [-> [Hu Hv]]]]. cbn [concat]. rewrite (Hx _ _ _ Hu), (IH _ _ _ Hv). reflexivity.
Qed.

Theorem text_unique : forall t, nonempty_branches t = true -> unique_text t.
Proof.
  induction t as [sp l0|sp bs IH|sp ts IH|sp b lo hi IH] using tok_ind'; intros Hne txt Ht x f l w Hx Hm.
  - apply expands_leaf in Hx. subst x. cbn [text_fold] in Ht. inversion Ht as [Hl]. apply flatmatch_single in Hm.
    eapply leaf_text_unique; eassumption.
  - apply expands_alt in Hx. destruct Hx as [b [Hin Hb]].
    pose proof (text_fold_alt_inv sp bs txt Hne Ht) as HT. apply nonempty_branches_alt in Hne. destruct Hne as [_ Hall].
    rewrite Forall_forall in HT, IH, Hall. destruct (HT b Hin) as [t' [Ht' <-]].
    exact (IH b Hin (Hall b Hin) t' Ht' x f l w Hb Hm).
  - apply expands_cat in Hx. destruct Hx as [xs [HF ->]].
    destruct (text_fold_cat_inv sp ts txt Hne Ht) as [tl [HT ->]]. apply nonempty_branches_cat in Hne. destruct Hne as [_ Hall].
    apply flatmatch_concat in Hm. eapply flatmatchs_strings; [|exact Hm]. clear Hm Ht.
    revert tl HT. induction HF as [|t0 x0 ts xs Hx0 _ IHF]; intros tl HT; inversion HT as [|? t1 ? tl' Ht1 HT']; subst; [constructor|].
    inversion IH as [|? ? IH0 IH']; subst. inversion Hall as [|? ? Hn0 Hall']; subst.
    cbn [map]. constructor; [|exact (IHF IH' Hall' tl' HT')]. intros f' l' w' Hm'. exact (IH0 Hn0 t1 Ht1 x0 f' l' w' Hx0 Hm').
  - apply expands_rep in Hx. destruct Hx as [xs [Hb [HF ->]]].
    destruct (text_fold_rep_inv sp b lo hi txt Hne Ht) as [a [-> [Ha ->]]].
    apply nonempty_branches_rep in Hne. destruct Hne as [Hnb _].
    replace (N.to_nat lo) with (length xs) by (destruct Hb; lia).
    apply flatmatch_concat in Hm. eapply flatmatchs_strings; [|exact Hm].
    clear Hm Hb. induction HF as [|x0 xs' Hx0 _ IHF]; cbn [length repeat]; constructor; [|exact IHF].
    intros f' l' w' Hm'. exact (IH Hnb a Ha x0 f' l' w' Hx0 Hm').
Qed.

Corollary two_texts_variant : forall t txt x1 x2 f1 l1 f2 l2 w1 w2,
  nonempty_branches t = true -> Expands t x1 -> Expands t x2 -> FlatMatch f1 l1 x1 w1 -> FlatMatch f2 l2 x2 w2 -> w1 <> w2 ->
  text_fold has_casing t <> Ok (Some (Inv txt)).
Proof.
  intros t txt x1 x2 f1 l1 f2 l2 w1 w2 Hne H1 H2 Hm1 Hm2 Hd Ht. apply Hd.
  rewrite (text_unique t Hne txt Ht x1 f1 l1 w1 H1 Hm1), (text_unique t Hne txt Ht x2 f2 l2 w2 H2 Hm2). reflexivity.
Qed.

(* C11: a pattern that reports invariant text matches no other text, in terms of the query and of the documented language *)
Theorem invariant_text_is_the_only_text : forall t txt w,
  nonempty_branches t = true -> text_variance has_casing t = Ok (Inv txt) -> Lang orbit t w -> w = text_to_string txt.
Proof.
  intros t txt w Hne Hv [x [Hx Hm]]. exact (text_unique t Hne txt (text_variance_fold t txt Hne Hv) x true true w Hx Hm).
Qed.

End TextFacts.

Lemma str_eqb_spec : forall a b, reflect (a = b) (str_eqb a b).
Proof. intros a b. apply iff_reflect. split; [intros ->; apply str_eqb_refl|apply str_eqb_eq]. Qed.
