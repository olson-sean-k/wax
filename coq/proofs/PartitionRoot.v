(* PartitionRoot.v -- C08: what the statements about the postfix of a partition rest on.  Where the prefix loop stops: it pops a run
   of tokens with invariant text and stops at the end, before a variant boundary (a tree wildcard), or right after the last boundary
   before the first variant token.  And a token that does not report "never rooted" has an expansion that begins with a boundary. *)
From Coq Require Import Arith.
From WaxModel Require Import Base Token Regex Spec Variance Fold Query.
From WaxProofs Require Import AlgebraFacts SpecFacts FuelFacts DepthAltFacts AdjacencyFacts.
Local Open Scope nat_scope.

Lemma skipn_len_app : forall {A} (a b : list A), skipn (length a) (a ++ b) = b.
Proof. intros A a b. rewrite skipn_app, Nat.sub_diag, skipn_all. reflexivity. Qed.

Lemma app_inv_length : forall {A} (a c b d : list A), a ++ b = c ++ d -> length a = length c -> a = c /\ b = d.
Proof.
  induction a as [|x a IH]; intros [|y c] b d H Hl; try discriminate; [auto|]. inversion H; subst.
  destruct (IH c b d H2 ltac:(cbn in Hl; lia)) as [-> ->]. auto.
Qed.

Section Loop.
Variable has_casing : char -> bool.
Notation text_variance := (text_variance has_casing).
Notation prefix_loop := (prefix_loop has_casing).

Definition invt (t : tok) : Prop := exists x, text_variance t = Ok (Inv x).
Definition vart (t : tok) : Prop := exists b, text_variance t = Ok (Var b).
Definition inv_nb (t : tok) : Prop := invt t /\ is_boundary t = false.

Definition inv_run (ts : list tok) (txts : list text) : Prop := Forall2 (fun t x => text_variance t = Ok (Inv x)) ts txts.
Definition strs (txts : list text) : str := concat (map text_to_string txts).

Lemma strs_cons : forall x txts, strs (x :: txts) = text_to_string x ++ strs txts.
Proof. reflexivity. Qed.

Definition open_run (l : list tok) : Prop :=
  exists nb v rest, l = nb ++ v :: rest /\ Forall inv_nb nb /\ vart v /\ is_boundary v = false.

Lemma open_run_head : forall t l, open_run (t :: l) -> is_boundary t = false.
Proof. intros t l [[|t1 nb] [v [rest [E [Hnb [_ Hv]]]]]]; injection E as -> _; [exact Hv|]. inversion Hnb as [|? ? [_ H] _]. exact H. Qed.

Definition ends_boundary (l : list tok) : Prop := exists l' pb, l = l' ++ [pb] /\ is_boundary pb = true.

(* the head after a run of invariant tokens with texts [txts] that begins at index [n] *)
Definition advance (n : N) (head : option (N * str)) (txts : list text) : option (N * str) :=
  match txts with
  | [] => head
  | _ => Some ((n + N.of_nat (length txts) - 1)%N, match head with Some (_, s) => s | None => [] end ++ strs txts)
  end.

Lemma advance_cons : forall n head txt txts,
  advance (n + 1) (Some (n, match head with Some (_, s) => s | None => [] end ++ text_to_string txt)) txts = advance n head (txt :: txts).
Proof.
  intros n head txt [|x l]; cbn [advance length]; f_equal; f_equal; try lia.
  - unfold strs. cbn [map concat]. rewrite app_nil_r. reflexivity.
  - rewrite (strs_cons txt). apply app_assoc_reverse.
Qed.

Lemma prefix_loop_spec : forall ts n head chk r, prefix_loop n ts head chk = Ok r ->
  (r = chk /\ open_run ts) \/
  exists pre txts post, ts = pre ++ post /\ inv_run pre txts /\ r = advance n head txts /\
    (post = [] \/ (exists v rest, post = v :: rest /\ vart v /\ is_boundary v = true) \/ (ends_boundary pre /\ open_run post)).
Proof.
  induction ts as [|t ts IH]; intros n head chk r H; cbn [Query.prefix_loop] in H.
  - right. exists [], [], []. inversion H. split; [reflexivity|]. split; [constructor|]. auto.
  - destruct (text_variance t) as [[txt|b]|] eqn:Ev; [| |discriminate]; cbn [rbind] in H.
    + apply IH in H. destruct H as [[-> Hrun]|[pre [txts [post [-> [Hrun [-> Hstop]]]]]]].
      * destruct (is_boundary t) eqn:Eb.
        -- right. exists [t], [txt], ts. split; [reflexivity|]. split; [repeat constructor; exact Ev|]. split; [exact (advance_cons n head txt [])|].
           right. right. split; [exists [], t; auto|exact Hrun].
        -- left. split; [reflexivity|]. destruct Hrun as [nb [v [rest [-> [Hnb Hv]]]]]. exists (t :: nb), v, rest. split; [reflexivity|].
           split; [constructor; [split; [exists txt; exact Ev|exact Eb]|exact Hnb]|exact Hv].
      * right. exists (t :: pre), (txt :: txts), post. split; [reflexivity|]. split; [constructor; assumption|]. split; [apply advance_cons|].
        destruct Hstop as [Hp|[Hp|[[l' [pb [-> Hpb]]] Hp]]]; [left; exact Hp|right; left; exact Hp|right; right].
        split; [exists (t :: l'), pb; auto|exact Hp].
    + inversion H; subst r. destruct (is_boundary t) eqn:Eb.
      * right. exists [], [], (t :: ts). split; [reflexivity|]. split; [constructor|]. split; [reflexivity|]. right. left. exists t, ts.
        split; [reflexivity|]. split; [exists b; exact Ev|exact Eb].
      * left. split; [reflexivity|]. exists [], t, ts. split; [reflexivity|]. split; [constructor|]. split; [exists b; exact Ev|exact Eb].
Qed.

(* where the loop stops ([prefix_loop_spec]), in positions of the whole token list, of which [done] was read before the loop was entered *)
Definition stop_info (all : list tok) (r : option (N * str)) : Prop :=
  match r with
  | None => True
  | Some (i, _) =>
      (S (N.to_nat i) <= length all) /\
      (S (N.to_nat i) = length all \/
       (exists v rest, skipn (S (N.to_nat i)) all = v :: rest /\ vart v /\ is_boundary v = true) \/
       (exists pb, nth_error all (N.to_nat i) = Some pb /\ is_boundary pb = true))
  end.

Definition chk_b (done : list tok) (chk : option (N * str)) : Prop :=
  match chk with None => True | Some (i, _) => exists pb, nth_error done (N.to_nat i) = Some pb /\ is_boundary pb = true end.

Lemma loop_stop : forall ts done n head chk r,
  n = N.of_nat (length done) ->
  (match head with None => True | Some (i, _) => S (N.to_nat i) = length done end) ->
  chk_b done chk -> prefix_loop n ts head chk = Ok r -> stop_info (done ++ ts) r.
Proof.
  intros ts done n head chk r Hn Hh Hc H. destruct (prefix_loop_spec _ _ _ _ _ H) as [[-> _]|[pre [txts [post [-> [Hrun [-> Hstop]]]]]]].
  - destruct chk as [[i s]|]; [|exact I]. destruct Hc as [pb [Hp Hb]].
    assert (Hlt : N.to_nat i < length done) by (apply nth_error_Some; congruence).
    split; [rewrite app_length; lia|]. right. right. exists pb. split; [rewrite nth_error_app1 by exact Hlt; exact Hp|exact Hb].
  - assert (Hadv : match advance n head txts with None => True | Some (i, _) => S (N.to_nat i) = length (done ++ pre) end).
    { pose proof (forall2_length _ _ _ Hrun) as Hl. destruct txts as [|x l]; cbn [advance].
      - destruct pre; [rewrite app_nil_r; exact Hh|discriminate].
      - rewrite app_length, Hl. cbn [length]. lia. }
    destruct (advance n head txts) as [[i s]|]; [|exact I]. cbn [stop_info]. rewrite app_assoc, Hadv. split; [rewrite (app_length (done ++ pre)); lia|].
    destruct Hstop as [->|[[v [rest [-> Hv]]]|[[l' [pb [-> Hpb]]] _]]].
    + left. rewrite app_nil_r. reflexivity.
    + right. left. exists v, rest. split; [apply skipn_len_app|exact Hv].
    + right. right. exists pb. split; [|exact Hpb]. replace (N.to_nat i) with (length (done ++ l')) by (rewrite !app_length in Hadv; cbn [length] in Hadv; rewrite app_length; lia).
      rewrite (app_assoc done), <- (app_assoc (done ++ l')), nth_error_app2, Nat.sub_diag by lia. reflexivity.
Qed.

Lemma advance_top : forall pre txts, inv_run pre txts ->
  match advance 0 None txts with Some (i, s) => ((i + 1)%N, s) | None => (0%N, []) end = (N.of_nat (length pre), strs txts).
Proof.
  intros pre txts H. pose proof (forall2_length _ _ _ H) as Hl. destruct txts as [|x l]; unfold advance.
  - destruct pre; [reflexivity|discriminate].
  - rewrite Hl. cbn [length]. f_equal. lia.
Qed.

Definition stops (pre post : list tok) : Prop :=
  post = [] \/ (exists v rest, post = v :: rest /\ vart v /\ is_boundary v = true) \/ ((pre = [] \/ ends_boundary pre) /\ open_run post).

Lemma itp_cut : forall sp pre post text,
  invariant_text_prefix has_casing (TCat sp (pre ++ post)) = Ok (N.of_nat (length pre), text) ->
  (pre = [] /\ exists t0 rest, post = t0 :: rest /\ has_root t0 = Always /\ vart t0) \/
  (exists txts, text = strs txts /\ inv_run pre txts /\ stops pre post).
Proof.
  intros sp pre post text H. unfold invariant_text_prefix in H. cbn [concatenation] in H.
  match type of H with rbind ?X _ = _ => destruct X as [[|]|] eqn:Erv end; [| |discriminate]; cbn [rbind] in H.
  - left. injection H as Hn <-. destruct pre; [|discriminate]. split; [reflexivity|]. cbn [app] in Erv.
    destruct post as [|t0 rest]; [discriminate|]. exists t0, rest. split; [reflexivity|]. destruct (has_root t0); try discriminate.
    split; [reflexivity|]. destruct (text_variance t0) as [[x|b]|] eqn:Ev; try discriminate. exists b. exact Ev.
  - right. destruct (prefix_loop 0 (pre ++ post) None None) as [r|] eqn:El; [|discriminate]. cbn [rbind] in H.
    destruct (prefix_loop_spec _ _ _ _ _ El) as [[-> Hrun]|[pre' [txts [post' [E [Hrun [-> Hstop]]]]]]].
    + injection H as Hn <-. destruct pre; [|discriminate]. exists []. split; [reflexivity|]. split; [constructor|]. right. right. auto.
    + rewrite (advance_top _ _ Hrun) in H. injection H as Hn <-. apply Nat2N.inj in Hn. destruct (app_inv_length _ _ _ _ E (eq_sym Hn)) as [-> ->].
      exists txts. split; [reflexivity|]. split; [exact Hrun|].
      destruct Hstop as [Hp|[Hp|[Hp Hq]]]; [left; exact Hp|right; left; exact Hp|right; right; auto].
Qed.

End Loop.

Lemma has_root_expansion : forall t, tok_bounds_ok t -> nonempty_branches t = true -> has_root_fold t <> Some Never ->
  exists x, Expands t x /\ fb x = true.
Proof.
  induction t as [t IH] using tok_children_ind. intros Hb Hn Hh.
  pose proof (fun c Hin => IH c Hin (bounds_ok_child t c Hb Hin) (nonempty_child t c Hn Hin)) as Hc.
  pose proof (fun c Hin => exists_expansion c (bounds_ok_child t c Hb Hin) (nonempty_child t c Hn Hin)) as Hany.
  destruct t as [sp l|sp bs|sp ts|sp b lo hi]; cbn [children] in Hc, Hany.
  - exists [l]. split; [constructor|]. cbn [has_root_fold] in Hh. cbn [fb]. destruct l; try (exfalso; apply Hh; reflexivity); try reflexivity.
  - destruct (proj1 (nonempty_branches_alt _ _) Hn) as [Hnil _].
    assert (Hex : Exists (fun b => has_root_fold b <> Some Never) bs).
    { apply neg_Forall_Exists_neg; [intros b; repeat decide equality|]. intros HF. apply Hh. apply alt_never; assumption. }
    apply Exists_exists in Hex. destruct Hex as [b [Hin Hb0]].
    destruct (Hc b Hin Hb0) as [x [Hx Hf]]. exists x. split; [econstructor; eassumption|exact Hf].
  - destruct (proj1 (nonempty_branches_cat _ _) Hn) as [Hnil _]. destruct ts as [|t0 ts']; [congruence|]. rewrite has_root_fold_cat in Hh.
    destruct (Hc t0 (or_introl eq_refl) Hh) as [x0 [Hx0 Hf0]].
    destruct (forall2_exists Expands ts' (fun m Hm => Hany m (or_intror Hm))) as [xs Hxs].
    exists (concat (x0 :: xs)). split; [constructor; constructor; assumption|].
    cbn [concat]. rewrite fb_app; [exact Hf0|]. intros ->. discriminate.
  - cbn [nonempty_branches has_root_fold] in Hn, Hh. apply andb_prop in Hn. destruct Hn as [_ Hnz]. destruct Hb as [_ [Hlo Hhi]].
    destruct (Hc b (or_introl eq_refl)) as [x [Hx Hf]]; [intros E; apply Hh; rewrite E; destruct (nr_lower (rep_range lo hi)); reflexivity|].
    (* at least one copy, also when the lower bound is zero *)
    exists (concat (repeat x (N.to_nat (N.max lo 1)))). split.
    + apply E_rep; [|apply expands_repeat; exact Hx]. unfold in_bounds. rewrite repeat_length, N2Nat.id. split; [lia|]. destruct hi as [h|]; [|exact I].
      apply negb_true_iff in Hnz. destruct (N.eqb_spec lo 0); destruct (N.eqb_spec h 0); cbn in Hnz; try discriminate; lia.
    + destruct (N.to_nat (N.max lo 1)) as [|k] eqn:Ek; [lia|]. cbn [repeat concat]. rewrite fb_app; [exact Hf|]. intros ->. discriminate.
Qed.

Lemma rooted_expansion : forall t, nonempty_branches t = true -> rep_free t = true -> has_root_fold t <> Some Never ->
  exists x, Expands t x /\ fb x = true.
Proof. intros t Hn Hr. exact (has_root_expansion t (rep_free_bounds_ok t Hr) Hn). Qed.
