(* ComposeFacts.v -- C07 at the level of the documented language: an alternation is the union of its branches, a
   repetition is the union of its body written out a permitted number of times, and both hold in place - inside any
   surrounding concatenation (not beneath a repetition, where the choice is made per iteration).  The `any` combinator
   only re-annotates its patterns under one alternation, and spans are irrelevant to the language: its language is the
   union too. *)
From WaxModel Require Import Base Token Regex Spec Query.
From WaxProofs Require Import SpecFacts.
From WaxProofs Require Import AlgebraFacts OwnedFacts.

Definition expands_as {I : Type} (t : tok) (P : I -> Prop) (u : I -> tok) : Prop :=
  forall x, Expands t x <-> exists i, P i /\ Expands (u i) x.

Lemma expands_as_alt : forall sp bs, expands_as (TAlt sp bs) (fun b => In b bs) (fun b => b).
Proof. intros sp bs x. apply expands_alt. Qed.

Lemma expands_as_rep : forall sp sp' b lo hi,
  expands_as (TRep sp b lo hi) (fun n => in_bounds n lo hi) (fun n => TCat sp' (repeat b n)).
Proof.
  intros sp sp' b lo hi x. rewrite expands_rep. split.
  - intros [xs [Hb [HF ->]]]. exists (length xs). split; [exact Hb|]. constructor. apply forall2_repeat_l. exact HF.
  - intros [n [Hb Hc]]. apply expands_cat in Hc. destruct Hc as [xs [HF ->]].
    pose proof (forall2_length _ _ _ HF) as Hl. rewrite repeat_length in Hl. subst n.
    exists xs. split; [exact Hb|]. split; [apply forall2_repeat_l; exact HF|reflexivity].
Qed.

Lemma expands_as_in_cat : forall {I : Type} sp pre t post (P : I -> Prop) u,
  expands_as t P u -> expands_as (TCat sp (pre ++ t :: post)) P (fun i => TCat sp (pre ++ u i :: post)).
Proof.
  intros I sp pre t post P u H x.
  assert (Hmid : forall t', Expands (TCat sp (pre ++ t' :: post)) x <->
            exists xs1 y xs2, Forall2 Expands pre xs1 /\ Expands t' y /\ Forall2 Expands post xs2 /\ x = concat (xs1 ++ y :: xs2)).
  { intros t'. rewrite expands_cat. split.
    - intros [xs [HF ->]]. apply Forall2_app_inv_l in HF. destruct HF as [xs1 [xs2 [H1 [H2 ->]]]].
      inversion H2 as [|? y ? ys Hy Hpost]; subst. exists xs1, y, ys. auto.
    - intros [xs1 [y [xs2 [H1 [Hy [H2 ->]]]]]]. eexists. split; [|reflexivity]. apply Forall2_app; [exact H1|constructor; assumption]. }
  rewrite Hmid. split.
  - intros [xs1 [y [xs2 [H1 [Hy HR]]]]]. apply H in Hy. destruct Hy as [i [Hi Hy]].
    exists i. split; [exact Hi|]. apply Hmid. exists xs1, y, xs2. auto.
  - intros [i [Hi Hx]]. apply Hmid in Hx. destruct Hx as [xs1 [y [xs2 [H1 [Hy HR]]]]].
    exists xs1, y, xs2. split; [exact H1|]. split; [apply H; exists i; auto|exact HR].
Qed.

Section Compose.
Variable orbit : char -> list char.
Notation Lang := (Spec.Lang orbit).

Lemma lang_expands_as : forall {I : Type} t (P : I -> Prop) u,
  expands_as t P u -> forall w, Lang t w <-> exists i, P i /\ Lang (u i) w.
Proof.
  intros I t P u H w. unfold Spec.Lang. split.
  - intros [x [Hx Hm]]. apply H in Hx. destruct Hx as [i [Hi Hx]]. exists i. split; [exact Hi|]. exists x. split; assumption.
  - intros [i [Hi [x [Hx Hm]]]]. exists x. split; [apply H; exists i; split; assumption|exact Hm].
Qed.

Theorem lang_alt : forall sp bs w, Lang (TAlt sp bs) w <-> exists b, In b bs /\ Lang b w.
Proof. intros sp bs. exact (lang_expands_as _ _ _ (expands_as_alt sp bs)). Qed.

Lemma any_tree_ok : forall ts, Forall tok_bounds_ok ts ->
  any_tree ts = Ok (TAlt (0%N, 0%N) (map (respan (fun _ => (0%N, 0%N))) ts)).
Proof. intros ts Hb. exact (fold_map_respan (fun _ => (0%N, 0%N)) (TAlt (0%N, 0%N) ts) (proj2 (tok_bounds_ok_alt _ ts) Hb)). Qed.

Lemma lang_any : forall sp g ts w, Lang (TAlt sp (map (respan g) ts)) w <-> exists a, In a ts /\ Lang a w.
Proof.
  intros sp g ts w. rewrite lang_alt. split.
  - intros [b [Hin Hl]]. apply in_map_iff in Hin. destruct Hin as [a [<- Hin]]. exists a. split; [exact Hin|apply (lang_respan orbit g a w); exact Hl].
  - intros [a [Hin Hl]]. exists (respan g a). split; [apply in_map; exact Hin|apply lang_respan; exact Hl].
Qed.

Lemma any_tree_lang : forall ts t w, Forall tok_bounds_ok ts -> any_tree ts = Ok t ->
  (Lang t w <-> exists a, In a ts /\ Lang a w).
Proof. intros ts t w Hb H. rewrite (any_tree_ok ts Hb) in H. inversion H; subst. apply lang_any. Qed.

End Compose.
