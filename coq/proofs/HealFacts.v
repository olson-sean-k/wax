(* HealFacts.v -- C20: the entries of a walk over a tree with faults are exactly the items of the walk over the readable
   part of the tree (unreadable directories read as empty, error nodes removed); layers see the same entries. *)
From WaxModel Require Import Base Walk.
From WaxProofs Require Import WalkFacts.
Local Open Scope nat_scope.

Definition is_err_node (n : node) : bool := match n with NErr => true | _ => false end.

Fixpoint heal (n : node) : node :=
  match n with
  | NDir kids =>
      NDir ((fix go (ks : list (name * node)) : list (name * node) :=
               match ks with
               | [] => []
               | k :: ks' => if is_err_node (snd k) then go ks' else (fst k, heal (snd k)) :: go ks'
               end) kids)
  | NDirErr => NDir []
  | other => other
  end.

Definition is_entry (r : ritem) : bool := match r with REntry _ _ _ => true | RError _ _ => false end.
Definition entries_only (l : list ritem) : list ritem := filter is_entry l.

Lemma entries_only_app : forall a b, entries_only (a ++ b) = entries_only a ++ entries_only b.
Proof. intros a b. unfold entries_only. apply filter_app. Qed.

Lemma entries_only_shown : forall ls mind d e, entries_only (shown ls mind d e) = shown ls mind d e.
Proof. intros ls mind d e. unfold shown. destruct (Nat.ltb d mind); reflexivity. Qed.

Lemma heal_entries : forall ls mind maxd n d p,
  entries_only (spec ls mind maxd d p n) = if is_err_node n then [] else spec ls mind maxd d p (heal n).
Proof.
  intros ls mind maxd n. induction n as [|kids IH| |] using node_ind'; intros d p.
  - cbn [spec heal is_err_node]. apply entries_only_shown.
  - cbn [is_err_node]. cbn [spec heal]. rewrite entries_only_app, entries_only_shown. f_equal.
    destruct (pruned ls mind d (mkEntry p true) || over maxd (S d)); [reflexivity|].
    induction IH as [|k ks Hk _ IHks]; [reflexivity|].
    rewrite entries_only_app, Hk, IHks. destruct (is_err_node (snd k)); reflexivity.
  - cbn [spec heal is_err_node]. rewrite entries_only_app, entries_only_shown. f_equal.
    destruct (pruned ls mind d (mkEntry p true) || over maxd (S d)); reflexivity.
  - reflexivity.
Qed.

Theorem walk_entries_heal : forall ls mind maxd root,
  is_err_node root = false ->
  entries_only (walk mind maxd ls root) = walk mind maxd ls (heal root).
Proof.
  intros ls mind maxd root H. rewrite !walk_refines. unfold walk_spec. rewrite heal_entries, H. reflexivity.
Qed.

Lemma heal_no_errors : forall ls mind maxd n d p q e,
  is_err_node n = false -> ~ In (RError q e) (spec ls mind maxd d p (heal n)).
Proof.
  intros ls mind maxd n d p q e Hn Hin.
  assert (E : spec ls mind maxd d p (heal n) = entries_only (spec ls mind maxd d p n)) by (rewrite heal_entries, Hn; reflexivity).
  rewrite E in Hin. apply filter_In in Hin. destruct Hin as [_ Hc]. discriminate.
Qed.
