(* RuleCompleteFacts.v -- C06, the other direction for the adjacency rules (no false rejection, "context-free"): for globs without repetitions,
   if the rule checker answers AdjacentBoundary then some expansion of the tree - some choice of branches - does hold two adjacent boundaries.
   Every item the breadth-first branch check reaches is *embedded* ([embeds], carried along the queue in [Inv]): its expansions occur in
   expansions of the whole tree, immediately between expansions of the outer left and right tokens it is checked against (the contexts
   nested branches inherit are real neighbours).  The witness of a verdict of the branch check is found once, for a leaf predicate and
   the rule kind that reports it ([branch_witness]); [check_adjacent_boundary_is_real] adds the rule inside one concatenation. *)
From WaxModel Require Import Base Token Spec Rule Parse.
From WaxProofs Require Import SpecFacts RuleFacts FuelFacts DepthTreeFacts DepthAltFacts BuiltNonempty AdjacencyFacts RuleAdjFacts.
Local Open Scope nat_scope.

Definition ctx_exp (o : option tok) (x : list leaf) : Prop := match o with Some t => Expands t x | None => x = [] end.
Definition good (t : tok) : Prop := nonempty_branches t = true /\ rep_free t = true.
Definition opt_good (o : option tok) : Prop := match o with Some t => good t | None => True end.

Lemma good_child : forall t c, good t -> In c (children t) -> good c.
Proof. intros t c [Hn Hr] Hin. split; [exact (nonempty_child t c Hn Hin)|exact (rep_free_child t c Hr Hin)]. Qed.

Lemma good_members : forall tk, good tk -> Forall good (concatenation tk).
Proof.
  intros tk Hg. destruct tk as [sp l|sp bs|sp ts|sp b lo hi]; cbn [concatenation]; try (constructor; [exact Hg|constructor]).
  apply Forall_forall. intros m Hm. exact (good_child (TCat sp ts) m Hg Hm).
Qed.

Lemma good_expansion : forall t, good t -> exists x, Expands t x.
Proof. intros t [Hn Hr]. exact (exists_expansion t (rep_free_bounds_ok t Hr) Hn). Qed.

Lemma forall2_good : forall ms, Forall good ms -> exists xs, Forall2 Expands ms xs.
Proof. intros ms H. apply forall2_exists. rewrite Forall_forall in H. intros m Hm. exact (good_expansion m (H m Hm)). Qed.

(* the members around a run [M] of members of a concatenation expand somehow *)
Lemma expands_around : forall sp A M B xsM, Forall good (A ++ M ++ B) -> Forall2 Expands M xsM ->
  exists pre post, Expands (TCat sp (A ++ M ++ B)) (pre ++ concat xsM ++ post).
Proof.
  intros sp A M B xsM Hg HM. apply Forall_app in Hg. destruct Hg as [HA Hg]. apply Forall_app in Hg. destruct Hg as [_ HB].
  destruct (forall2_good A HA) as [xsA HxsA]. destruct (forall2_good B HB) as [xsB HxsB].
  exists (concat xsA), (concat xsB). rewrite <- !concat_app. constructor. apply Forall2_app; [exact HxsA|apply Forall2_app; assumption].
Qed.

Definition embeds (root : tok) (L : option tok) (tk : tok) (R : option tok) : Prop :=
  forall xk xl xr, Expands tk xk -> ctx_exp L xl -> ctx_exp R xr -> exists pre post, Expands root (pre ++ xl ++ xk ++ xr ++ post).

Lemma ctx_exp_exists : forall o, opt_good o -> exists x, ctx_exp o x.
Proof. intros [t|] H; [exact (good_expansion t H)|exists []; reflexivity]. Qed.

Lemma adjacent_decomp : forall ms lf l m r, In (l, m, r) (adjacent_aux lf ms) ->
  exists A B, ms = A ++ m :: B /\ l = (match last_opt A with Some a => Some a | None => lf end) /\ r = hd_error B.
Proof.
  induction ms as [|t ms IH]; intros lf l m r H; [contradiction|]. cbn [adjacent_aux] in H. destruct H as [H|H].
  - inversion H; subst. exists [], ms. split; [reflexivity|]. split; [reflexivity|destruct ms; reflexivity].
  - destruct (IH (Some t) l m r H) as [A [B [-> [Hl Hr]]]]. exists (t :: A), B. split; [reflexivity|]. split; [|exact Hr].
    destruct A as [|a A']; [exact Hl|]. change (last_opt (t :: a :: A')) with (last_opt (a :: A')).
    destruct (last_opt_nonempty (a :: A')) as [z Hz]; [discriminate|]. rewrite Hz in *. exact Hl.
Qed.

Definition Inv (root : tok) (it : outer * tok) : Prop :=
  good (snd it) /\ opt_good (o_left (fst it)) /\ opt_good (o_right (fst it)) /\ embeds root (o_left (fst it)) (snd it) (o_right (fst it)).

Lemma last_opt_snoc : forall {A} (l : list A) a, last_opt (l ++ [a]) = Some a.
Proof. intros A l a. apply SpecFacts.last_opt_app. Qed.

Lemma opt_good_left : forall A oL, Forall good A -> opt_good oL -> opt_good (opt_or (last_opt A) oL).
Proof.
  intros A oL HgA HgL. destruct (last_opt A) as [lt|] eqn:Ea; [|exact HgL]. rewrite Forall_forall in HgA. exact (HgA lt (last_opt_in _ _ Ea)).
Qed.

Lemma opt_good_right : forall B oR, Forall good B -> opt_good oR -> opt_good (opt_or (hd_error B) oR).
Proof. intros [|rt B'] oR HgB HgR; [exact HgR|]. inversion HgB; assumption. Qed.

(* the members before a member of a concatenation expand so that an expansion of its left neighbour - the last of them, or the outer
   left token when there is none - comes last; likewise on the right *)
Lemma expand_left : forall A oL xl, Forall good A -> opt_good oL -> ctx_exp (opt_or (last_opt A) oL) xl ->
  exists xsA xL pre, Forall2 Expands A xsA /\ ctx_exp oL xL /\ xL ++ concat xsA = pre ++ xl.
Proof.
  intros A oL xl HgA HgL Hxl. destruct (last_opt A) as [lt|] eqn:Ea; cbn [opt_or] in *.
  - apply last_opt_some in Ea. destruct Ea as [A' ->]. apply Forall_app in HgA. destruct HgA as [HgA' _].
    destruct (forall2_good A' HgA') as [xsA HxsA]. destruct (ctx_exp_exists _ HgL) as [xL HxL].
    exists (xsA ++ [xl]), xL, (xL ++ concat xsA). split; [apply Forall2_app; [exact HxsA|constructor; [exact Hxl|constructor]]|].
    split; [exact HxL|]. rewrite concat_snoc, app_assoc. reflexivity.
  - destruct A as [|a A']; [|destruct (last_opt_nonempty (a :: A')) as [z Hz]; [discriminate|congruence]].
    exists [], xl, []. split; [constructor|]. split; [exact Hxl|apply app_nil_r].
Qed.

Lemma expand_right : forall B oR xr, Forall good B -> opt_good oR -> ctx_exp (opt_or (hd_error B) oR) xr ->
  exists xsB xR post, Forall2 Expands B xsB /\ ctx_exp oR xR /\ concat xsB ++ xR = xr ++ post.
Proof.
  intros B oR xr HgB HgR Hxr. destruct B as [|rt B']; cbn [hd_error opt_or] in *.
  - exists [], xr, []. split; [constructor|]. split; [exact Hxr|symmetry; apply app_nil_r].
  - inversion HgB as [|? ? _ HgB']; subst. destruct (forall2_good B' HgB') as [xsB HxsB]. destruct (ctx_exp_exists _ HgR) as [xR HxR].
    exists (xr :: xsB), xR, (concat xsB ++ xR). split; [constructor; assumption|]. split; [exact HxR|]. cbn [concat]. rewrite <- app_assoc. reflexivity.
Qed.

Lemma Inv_child : forall root o tk c, Inv root (o, tk) -> In c (item_children (o, tk)) -> Inv root c.
Proof.
  intros root o tk [oc b] [Hg [HgL [HgR Hemb]]] Hin. cbn [fst snd] in *. unfold item_children in Hin. cbn [fst snd] in Hin.
  apply in_flat_map in Hin. destruct Hin as [[[l m] r] [Htr Hc]]. pose proof (good_members tk Hg) as Hmem.
  destruct (adjacent_decomp _ _ _ _ _ Htr) as [A [B [Ems [El Er]]]]. rewrite Ems in Hmem.
  apply Forall_app in Hmem. destruct Hmem as [HgA HgmB]. apply Forall_cons_iff in HgmB. destruct HgmB as [Hgm HgB].
  assert (El' : l = last_opt A) by (rewrite El; destruct (last_opt A); reflexivity). clear El. subst l r.
  destruct m as [sm lm|sm bs|sm cs|sm bm lo hi]; cbn [step_children] in Hc; try contradiction; [|destruct Hgm as [_ Hr]; discriminate].
  apply in_map_iff in Hc. destruct Hc as [b' [E Hb]]. inversion E; subst oc b'. clear E. cbn [outer_or o_left o_right].
  split; [exact (good_child (TAlt sm bs) b Hgm Hb)|]. split; [exact (opt_good_left A _ HgA HgL)|]. split; [exact (opt_good_right B _ HgB HgR)|].
  intros xb xl xr Hxb Hxl Hxr.
  destruct (expand_left A _ xl HgA HgL Hxl) as [xsA [xL [pre' [HxsA [HxL EL]]]]].
  destruct (expand_right B _ xr HgB HgR Hxr) as [xsB [xR [post' [HxsB [HxR ER]]]]].
  assert (Hxtk : Expands tk (concat (xsA ++ [xb] ++ xsB))).
  { apply expands_concatenation. eexists. split; [|reflexivity]. rewrite Ems. apply Forall2_app; [exact HxsA|].
    constructor; [econstructor; eassumption|exact HxsB]. }
  destruct (Hemb _ xL xR Hxtk HxL HxR) as [pre [post He]]. exists (pre ++ pre'), (post' ++ post).
  rewrite !concat_app in He. cbn [concat] in He. rewrite app_nil_r in He.
  rewrite <- (app_assoc pre pre'), (app_assoc pre' xl), (app_assoc xr post'), <- EL, <- ER, <- !app_assoc. rewrite <- !app_assoc in He. exact He.
Qed.

Lemma reach_inv : forall root it d, reach it d -> Inv root it -> Inv root d.
Proof. intros root it d H. induction H as [it|it c d Hc _ IH]; intros HI; [exact HI|]. apply IH. destruct it as [o tk]. eapply Inv_child; eassumption. Qed.

Lemma root_inv : forall root, good root -> Inv root (outer_default, root).
Proof.
  intros root Hg. split; [exact Hg|]. split; [exact I|]. split; [exact I|]. intros xk xl xr Hk Hl Hr. cbn [fst snd outer_default o_left o_right ctx_exp] in *. subst xl xr.
  exists [], []. cbn [app]. rewrite app_nil_r. exact Hk.
Qed.

Lemma loop_some_item : forall f q e, branch_loop f q = Some e -> exists it d, In it q /\ reach it d /\ fst (branch_item d) = Some e.
Proof.
  induction f as [|f IH]; intros q e H; [discriminate|]. destruct q as [|it0 rest]; [discriminate|]. rewrite branch_loop_step in H.
  destruct (fst (branch_item it0)) as [e0|] eqn:Eb; cbn [opt_first] in H.
  - inversion H; subst. exists it0, it0. split; [left; reflexivity|]. split; [constructor|exact Eb].
  - destruct (IH _ _ H) as [it [d [Hin [Hr He]]]]. apply in_app_or in Hin. destruct Hin as [Hin|Hin].
    + exists it, d. split; [right; exact Hin|]. split; assumption.
    + exists it0, d. split; [left; reflexivity|]. split; [exact (reach_step _ _ _ Hin Hr)|exact He].
Qed.

(* a verdict of the branch check comes from a branch of an alternation among the members of a reached item *)
Lemma rule_branch_some : forall root k sp, good root -> rule_branch root = Some (k, sp) ->
  exists o b tm, Inv root (o, b) /\ terminals_of (concatenation b) = Some tm /\ opt_first (check_branch tm o) (check_alternation tm o) = Some k.
Proof.
  intros root k sp Hg H. unfold rule_branch in H. destruct (loop_some_item _ _ _ H) as [it [d [Hin [Hr He]]]]. destruct Hin as [<-|[]].
  pose proof (reach_inv root _ _ Hr (root_inv root Hg)) as HI. destruct d as [o tk]. rewrite branch_item_steps in He.
  destruct (first_some_l_some _ _ _ He) as [[[l m] r] [Hx Hs]]. unfold step_verdict in Hs.
  destruct (step_err o (l, m, r)) as [k'|] eqn:Hs'; inversion Hs; subst k'. clear Hs. rename Hs' into Hs.
  assert (Hgm : good m).
  { pose proof (good_members tk (proj1 HI)) as Hmem. rewrite Forall_forall in Hmem. apply Hmem. exact (adjacent_member _ _ _ _ _ Hx). }
  destruct m as [sm lm|sm bs|sm cs|sm bm lo hi]; cbn [step_err] in Hs; try discriminate; [|destruct Hgm as [_ Hrf]; discriminate].
  destruct (first_some_l_some _ _ _ Hs) as [b [Hb Hfb]]. destruct (terminals_of (concatenation b)) as [tm|] eqn:Et; [|discriminate].
  exists (outer_or o l r), b, tm. split; [|split; [exact Et|exact Hfb]].
  apply (Inv_child root o tk _ HI). apply in_flat_map. exists (l, TAlt sm bs, r). split; [exact Hx|]. exact (in_map _ _ _ Hb).
Qed.

Section Witness.
Variables (p : tok -> bool) (q : leaf -> bool) (k : rule_kind).
Hypothesis p_lift : forall t, p t = match t with TLeaf _ l => q l | _ => false end.
Hypothesis branch_says : forall tm o, check_branch tm o = Some k ->
  p (term_first tm) && opt_any (ends_with p) (o_left o) = true \/ p (term_last tm) && opt_any (starts_with p) (o_right o) = true.
Hypothesis k_branch : k <> RootedSubGlob.

Lemma starts_witness : forall t, good t -> starts_with p t = true -> exists x, Expands t x /\ gfirst q x = true.
Proof.
  induction t as [t IH] using tok_children_ind. intros Hg Hs.
  destruct t as [sp l|sp bs|sp ts|sp b lo hi]; cbn [starts_with children] in *; rewrite p_lift in Hs; [| | |destruct Hg as [_ Hr]; discriminate].
  - exists [l]. split; [constructor|]. rewrite orb_false_r in Hs. exact Hs.
  - apply existsb_exists in Hs. destruct Hs as [b [Hin Hb]]. destruct (IH b Hin (good_child _ _ Hg Hin) Hb) as [x [Hx Hf]].
    exists x. split; [econstructor; eassumption|exact Hf].
  - destruct ts as [|t0 ts']; [discriminate|]. pose proof (good_members _ Hg) as Hmem. inversion Hmem as [|? ? Hg0 Hg']; subst.
    destruct (IH t0 (or_introl eq_refl) Hg0 Hs) as [x0 [Hx0 Hf0]]. destruct (forall2_good ts' Hg') as [xs Hxs].
    exists (concat (x0 :: xs)). split; [constructor; constructor; assumption|]. cbn [concat]. rewrite gfirst_app; [exact Hf0|]. intros ->. discriminate.
Qed.

Lemma ends_witness : forall t, good t -> ends_with p t = true -> exists x, Expands t x /\ glast q x = true.
Proof.
  induction t as [t IH] using tok_children_ind. intros Hg Hs. destruct t as [sp l|sp bs|sp ts|sp b lo hi]; [| | |destruct Hg as [_ Hr]; discriminate].
  - exists [l]. split; [constructor|]. cbn [ends_with] in Hs. rewrite p_lift, orb_false_r in Hs. exact Hs.
  - cbn [ends_with] in Hs. rewrite p_lift in Hs. apply existsb_exists in Hs. destruct Hs as [b [Hin Hb]].
    destruct (IH b Hin (good_child _ _ Hg Hin) Hb) as [x [Hx Hf]]. exists x. split; [econstructor; eassumption|exact Hf].
  - destruct (list_snoc_case ts) as [->|[pre [tl ->]]]; [cbn [ends_with] in Hs; rewrite p_lift in Hs; discriminate|].
    rewrite (ends_with_cat _ sp _ tl (last_opt_snoc pre tl)), p_lift in Hs.
    pose proof (good_members _ Hg) as Hmem. cbn [concatenation] in Hmem. apply Forall_app in Hmem. destruct Hmem as [Hgp Hgl]. inversion Hgl; subst.
    destruct (IH tl ltac:(apply in_or_app; right; left; reflexivity) ltac:(assumption) Hs) as [xl [Hxl Hfl]]. destruct (forall2_good pre Hgp) as [xs Hxs].
    exists (concat (xs ++ [xl])). split; [constructor; apply Forall2_app; [exact Hxs|constructor; [exact Hxl|constructor]]|].
    rewrite glast_concat_snoc; [exact Hfl|]. intros ->. discriminate.
Qed.

Lemma p_is_leaf : forall m, p m = true -> exists sp l, m = TLeaf sp l /\ q l = true.
Proof. intros m H. rewrite p_lift in H. destruct m as [sp l| | |]; try discriminate. eauto. Qed.

Theorem branch_witness : forall root sp, good root -> rule_branch root = Some (k, sp) -> exists x, Expands root x /\ gchain q false x = false.
Proof.
  intros root sp Hg H. destruct (rule_branch_some root k sp Hg H) as [o [b [tm [[Hgb [HgL [HgR Hemb]]] [Et Hk]]]]]. cbn [fst snd] in *.
  assert (Hcb : check_branch tm o = Some k).
  { destruct (check_branch tm o); [exact Hk|]. destruct (k_branch (check_alternation_kind tm o k Hk)). }
  destruct (good_expansion b Hgb) as [xb Hxb]. pose proof (solid_nonempty b xb (rep_free_solid b (proj1 Hgb) (proj2 Hgb)) Hxb) as Nb.
  destruct (terminals_of_ends (concatenation b)) as [tm' [rest [Et' [Ec El]]]]; [intros E; rewrite E in Et; discriminate|].
  rewrite Et in Et'. injection Et' as <-.
  destruct (branch_says tm o Hcb) as [H1|H1]; apply andb_prop in H1; destruct H1 as [Hp Hctx]; destruct (p_is_leaf _ Hp) as [s1 [l1 [E1 Hl1]]].
  - destruct (o_left o) as [L|]; [|discriminate]. destruct (ends_witness L HgL Hctx) as [xl [Hxl Hlb]].
    destruct (ctx_exp_exists _ HgR) as [xr Hxr]. destruct (Hemb xb xl xr Hxb Hxl Hxr) as [pre [post He']].
    exists (pre ++ xl ++ xb ++ xr ++ post). split; [exact He'|]. apply gchain_breaks; [exact Hlb|].
    rewrite E1 in Ec. rewrite gfirst_app, (first_member_first q b s1 l1 rest xb Ec Hxb) by exact Nb. exact Hl1.
  - destruct (o_right o) as [R|]; [|discriminate]. destruct (starts_witness R HgR Hctx) as [xr [Hxr Hfr]].
    destruct (ctx_exp_exists _ HgL) as [xl Hxl]. destruct (Hemb xb xl xr Hxb Hxl Hxr) as [pre [post He']].
    exists (pre ++ xl ++ xb ++ xr ++ post). split; [exact He'|].
    rewrite (app_assoc pre xl). rewrite E1 in El. apply gchain_breaks; [rewrite (last_member_last q b s1 l1 xb El Hxb); exact Hl1|].
    rewrite gfirst_app; [exact Hfr|]. intros ->. discriminate.
Qed.
End Witness.

Lemma sub_embeds : forall c t, sub c t -> good t -> good c /\ forall xc, Expands c xc -> exists pre post, Expands t (pre ++ xc ++ post).
Proof.
  intros c t H. induction H as [t|x c0 t Hin Hs IH]; intros Hg.
  - split; [exact Hg|]. intros xc Hx. exists [], []. rewrite app_nil_r. exact Hx.
  - pose proof (good_child t c0 Hg Hin) as Hgc. destruct (IH Hgc) as [Hgx Hemb]. split; [exact Hgx|]. intros xc Hx.
    destruct (Hemb xc Hx) as [pre [post Hc0]].
    destruct t as [sp l|sp bs|sp ts|sp b lo hi]; cbn [children] in Hin; try contradiction.
    + exists pre, post. econstructor; eassumption.
    + apply in_split in Hin. destruct Hin as [A [B ->]].
      destruct (expands_around sp A [c0] B [pre ++ xc ++ post] (good_members _ Hg) ltac:(repeat constructor; exact Hc0)) as [pre' [post' H]].
      exists (pre' ++ pre), (post ++ post'). cbn [concat] in H. rewrite app_nil_r, <- !app_assoc in H. rewrite <- !app_assoc. exact H.
    + destruct Hg as [_ Hr]. discriminate.
Qed.

Lemma adjacent_boundary_some : forall ts sp, adjacent_boundary ts = Some sp ->
  exists A a b B, ts = A ++ a :: b :: B /\ is_boundary a = true /\ is_boundary b = true.
Proof.
  induction ts as [|a ts IH]; intros sp H; [discriminate|]. destruct ts as [|b ts']; [discriminate|]. cbn [adjacent_boundary] in H.
  destruct (is_boundary a && is_boundary b) eqn:E.
  - apply andb_prop in E. exists [], a, b, ts'. split; [reflexivity|exact E].
  - destruct (IH sp H) as [A [a' [b' [B [E' Hab]]]]]. exists (a :: A), a', b', B. split; [rewrite E'; reflexivity|exact Hab].
Qed.

Theorem boundary_rule_witness : forall root e, good root -> rule_boundary root = Some e -> exists x, Expands root x /\ chain_ok false x = false.
Proof.
  intros root e Hg H. unfold rule_boundary in H.
  destruct (first_some_l (fun x => match x with TCat _ ts => adjacent_boundary ts | _ => None end) (bfs root)) as [sp|] eqn:E; [|discriminate].
  destruct (first_some_l_some _ _ _ E) as [c [Hin Hc]]. destruct c as [| |sc ts|]; try discriminate.
  destruct (sub_embeds _ _ (bfs_sub _ _ Hin) Hg) as [Hgc Hemb].
  destruct (adjacent_boundary_some ts sp Hc) as [A [a [b [B [-> [Ha Hb]]]]]].
  rewrite is_boundary_lift in Ha, Hb. destruct a as [sa la| | |]; try discriminate. destruct b as [sb lb0| | |]; try discriminate.
  destruct (expands_around sc A [TLeaf sa la; TLeaf sb lb0] B [[la]; [lb0]] (good_members _ Hgc) ltac:(repeat constructor)) as [pre' [post' Hxc]].
  destruct (Hemb _ Hxc) as [pre [post Hr]]. eexists. split; [exact Hr|].
  cbn [concat app]. rewrite <- app_assoc, (app_assoc pre pre'). apply (gchain_breaks is_bnd _ [la] (lb0 :: post' ++ post)); [exact Ha|exact Hb].
Qed.

(* C06: the rule checker never answers AdjacentBoundary for a tree without repetitions none of whose expansions holds two adjacent boundaries *)
Theorem check_adjacent_boundary_is_real : forall t sp, good t ->
  check t = Ok (Some (AdjacentBoundary, sp)) -> exists x, Expands t x /\ chain_ok false x = false.
Proof.
  intros t sp Hg H. destruct (check_some t _ sp H) as [[_ Hb]|[Hk|[Hb|Hk]]]; try discriminate.
  - exact (boundary_rule_witness t _ Hg Hb).
  - exact (branch_witness is_boundary is_bnd AdjacentBoundary is_boundary_lift (fun tm o => check_branch_some tm o AdjacentBoundary)
             ltac:(discriminate) t sp Hg Hb).
Qed.

Lemma parsed_good : forall e t, parse e = ParseOk t -> rep_free t = true -> good t.
Proof.
  intros e t Hp Hr. split; [|exact Hr]. apply (parse_nonempty e t Hp). intros x Hsub.
  pose proof (sub_closed _ rep_free_child _ _ Hsub Hr) as Hx. destruct x; [reflexivity..|discriminate].
Qed.
