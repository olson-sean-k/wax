(* AdjacencyFacts.v -- C06: leaf sequences in which no two neighbours both satisfy a predicate [q] on leaves - boundaries (separators and
   tree wildcards) for the first adjacency rule of the rule checker, zero-or-more wildcards for the second - and how the first and the
   last leaf of an expansion follow the tree.  At [is_bnd] the functions [gchain], [gfirst], [glast] are [chain_ok], [fb], [lb] of the
   depth proofs by conversion, which is why [q] is a section variable and not an argument of the fixpoint.  The predicate [p] on tokens
   ([is_boundary], [is_zom]) is [q] on leaves and false on branches.
   Before that: the child projections of [nonempty_branches], [rep_free] and [tok_bounds_ok]; [exists_expansion]; the trees none of
   whose expansions is empty ([solid]), among them every class in which repetitions are written out at least once; what the last piece
   of an expansion of a concatenation or repetition is, and [no_trailing_sep_solid]. *)
From WaxModel Require Import Base Token Regex Spec Rule.
From WaxProofs Require Import AlgebraFacts SpecFacts ExhaustFacts FuelFacts RuleFacts DepthAltFacts.
Local Open Scope nat_scope.

Lemma list_snoc_case : forall {A} (l : list A), l = [] \/ exists pre a, l = pre ++ [a].
Proof. intros A [|a l]; [left; reflexivity|right]. destruct (exists_last (l := a :: l)) as [pre [z E]]; [discriminate|eauto]. Qed.

Lemma forall2_last : forall {A B} (R : A -> B -> Prop) l l' a, Forall2 R l l' -> last_opt l = Some a ->
  exists pre b, l' = pre ++ [b] /\ R a b.
Proof.
  intros A B R l l' a H. induction H as [|x y l l' Hxy HF IH]; intros Hl; [discriminate|]. destruct l as [|x2 l2].
  - inversion HF; subst. cbn in Hl. inversion Hl; subst. exists [], y. auto.
  - change (last_opt (x :: x2 :: l2)) with (last_opt (x2 :: l2)) in Hl. destruct (IH Hl) as [pre [b [-> Hb]]]. exists (y :: pre), b. auto.
Qed.

Lemma expands_singleton : forall t x, Expands t x <-> exists xs, Forall2 Expands [t] xs /\ x = concat xs.
Proof.
  intros t x. split; [intros H; exists [x]; split; [constructor; [exact H|constructor]|cbn; rewrite app_nil_r; reflexivity]|].
  intros [xs [HF ->]]. inversion HF as [|? y ? ys Hy Hr]; subst. inversion Hr; subst. cbn. rewrite app_nil_r. exact Hy.
Qed.

Lemma expands_concatenation : forall tk x, Expands tk x <-> exists xs, Forall2 Expands (concatenation tk) xs /\ x = concat xs.
Proof.
  intros tk x. destruct tk as [sp l|sp bs|sp ts|sp b lo hi]; [apply expands_singleton|apply expands_singleton|apply expands_cat|apply expands_singleton].
Qed.

Lemma ends_with_cat : forall p sp ts t, last_opt ts = Some t -> ends_with p (TCat sp ts) = p (TCat sp ts) || ends_with p t.
Proof.
  intros p sp ts t H. cbn [ends_with]. f_equal. induction ts as [|a ts IH]; [discriminate|]. destruct ts as [|b ts'].
  - cbn in H. inversion H; subst. reflexivity.
  - change (last_opt (a :: b :: ts')) with (last_opt (b :: ts')) in H. rewrite <- (IH H). reflexivity.
Qed.

Lemma nonempty_child : forall t c, nonempty_branches t = true -> In c (children t) -> nonempty_branches c = true.
Proof.
  intros [sp l|sp bs|sp ts|sp b lo hi] c H Hin; cbn [children nonempty_branches] in *; [contradiction| | |]; apply andb_prop in H.
  - destruct H as [_ H]. rewrite forallb_forall in H. exact (H c Hin).
  - destruct H as [_ H]. rewrite forallb_forall in H. exact (H c Hin).
  - destruct Hin as [<-|[]]. exact (proj1 H).
Qed.

Lemma rep_free_child : forall t c, rep_free t = true -> In c (children t) -> rep_free c = true.
Proof.
  intros [sp l|sp bs|sp ts|sp b lo hi] c H Hin; cbn [children rep_free] in *; [contradiction| | |discriminate];
    rewrite forallb_forall in H; exact (H c Hin).
Qed.

Lemma bounds_ok_child : forall t c, tok_bounds_ok t -> In c (children t) -> tok_bounds_ok c.
Proof.
  intros [sp l|sp bs|sp ts|sp b lo hi] c H Hin; cbn [children] in Hin; [contradiction| | |destruct Hin as [<-|[]]; exact (proj1 H)].
  - apply tok_bounds_ok_alt in H. rewrite Forall_forall in H. exact (H c Hin).
  - apply tok_bounds_ok_cat in H. rewrite Forall_forall in H. exact (H c Hin).
Qed.

Lemma rep_free_class : forall c : tok -> bool, (forall sp l, c (TLeaf sp l) = true) ->
  (forall sp bs, c (TAlt sp bs) = forallb c bs) -> (forall sp ts, c (TCat sp ts) = forallb c ts) ->
  forall t, rep_free t = true -> c t = true.
Proof.
  intros c Hleaf Halt Hcat. induction t as [t IH] using tok_children_ind. intros Hr.
  pose proof (fun ch Hin => IH ch Hin (rep_free_child t ch Hr Hin)) as Hc.
  destruct t as [sp l|sp bs|sp ts|sp b lo hi]; [apply Hleaf|rewrite Halt|rewrite Hcat|discriminate]; apply forallb_forall; exact Hc.
Qed.

Lemma rep_free_bounds_ok : forall t, rep_free t = true -> tok_bounds_ok t.
Proof.
  induction t as [t IH] using tok_children_ind. intros Hr. pose proof (fun ch Hin => IH ch Hin (rep_free_child t ch Hr Hin)) as Hc.
  destruct t as [sp l|sp bs|sp ts|sp b lo hi]; [exact I|apply tok_bounds_ok_alt|apply tok_bounds_ok_cat|discriminate]; apply Forall_forall; exact Hc.
Qed.

Lemma forall2_exists : forall {A B} (R : A -> B -> Prop) l, (forall a, In a l -> exists b, R a b) -> exists l', Forall2 R l l'.
Proof.
  intros A B R. induction l as [|a l IH]; intros H; [exists []; constructor|]. destruct (H a (or_introl eq_refl)) as [b Hb].
  destruct IH as [l' Hl']; [intros a' Ha'; apply H; right; exact Ha'|]. exists (b :: l'). constructor; assumption.
Qed.

Lemma expands_repeat : forall b x n, Expands b x -> Forall (Expands b) (repeat x n).
Proof. intros b x n H. induction n; [constructor|cbn [repeat]; constructor; assumption]. Qed.

Lemma exists_expansion : forall t, tok_bounds_ok t -> nonempty_branches t = true -> exists x, Expands t x.
Proof.
  induction t as [t IH] using tok_children_ind. intros Hb Hn.
  pose proof (fun c Hin => IH c Hin (bounds_ok_child t c Hb Hin) (nonempty_child t c Hn Hin)) as Hc.
  destruct t as [sp l|sp bs|sp ts|sp b lo hi]; cbn [children] in Hc.
  - exists [l]. constructor.
  - destruct bs as [|b0 bs']; [discriminate|]. destruct (Hc b0 (or_introl eq_refl)) as [x Hx]. exists x. econstructor; [left; reflexivity|exact Hx].
  - destruct (forall2_exists Expands ts Hc) as [xs Hxs]. exists (concat xs). constructor. exact Hxs.
  - destruct (Hc b (or_introl eq_refl)) as [x Hx]. destruct Hb as [_ [Hlo Hhi]].
    exists (concat (repeat x (N.to_nat lo))). apply E_rep; [|apply expands_repeat; exact Hx].
    unfold in_bounds. rewrite repeat_length, N2Nat.id. split; [lia|]. destruct hi as [h|]; [lia|exact I].
Qed.

Lemma forall2_expansions : forall ts, Forall tok_bounds_ok ts -> Forall (fun m => nonempty_branches m = true) ts -> exists xs, Forall2 Expands ts xs.
Proof. intros ts Hb Hn. apply forall2_exists. rewrite Forall_forall in *. intros m Hm. apply exists_expansion; auto. Qed.

(* neither [t] nor any of its descendants has an empty expansion *)
Definition solid (t : tok) : Prop := forall c, sub c t -> fnull c = false.

Lemma solid_child : forall t c, solid t -> In c (children t) -> solid c.
Proof. intros t c H Hin x Hx. apply H. eapply sub_child; eassumption. Qed.

Lemma solid_body : forall sp b lo hi, solid (TRep sp b lo hi) -> solid b.
Proof. intros sp b lo hi H. apply (solid_child _ _ H). left. reflexivity. Qed.

Lemma solid_nonempty : forall t x, solid t -> Expands t x -> x <> [].
Proof. intros t x H Hx ->. pose proof (expands_nil_fnull t Hx) as Hf. rewrite (H t (sub_refl t)) in Hf. discriminate. Qed.

Section RequiredRepetitions.
Variable c : tok -> bool.
Hypothesis c_child : forall t ch, c t = true -> In ch (children t) -> c ch = true.
Hypothesis c_rep : forall sp b lo hi, c (TRep sp b lo hi) = true -> (1 <= lo)%N.

Lemma class_fnull : forall t, nonempty_branches t = true -> c t = true -> fnull t = false.
Proof.
  induction t as [t IH] using tok_children_ind. intros Hn Hs.
  pose proof (fun ch Hin => IH ch Hin (nonempty_child t ch Hn Hin) (c_child t ch Hs Hin)) as Hc.
  destruct t as [sp l|sp bs|sp ts|sp b lo hi]; cbn [fnull children nonempty_branches] in *.
  - reflexivity.
  - destruct (existsb fnull bs) eqn:E; [|reflexivity]. apply existsb_exists in E. destruct E as [b [Hin Hb]]. rewrite (Hc b Hin) in Hb. discriminate.
  - destruct ts as [|t0 ts']; [discriminate|]. cbn [forallb]. rewrite (Hc t0 (or_introl eq_refl)). reflexivity.
  - pose proof (c_rep sp b lo hi Hs) as Hlo. rewrite (Hc b (or_introl eq_refl)). destruct (N.eqb_spec lo 0); [lia|reflexivity].
Qed.

Lemma class_solid : forall t, nonempty_branches t = true -> c t = true -> solid t.
Proof.
  intros t Hn Hs x Hsub.
  apply class_fnull; [exact (sub_closed _ nonempty_child _ _ Hsub Hn)|exact (sub_closed (fun x => c x = true) c_child _ _ Hsub Hs)].
Qed.
End RequiredRepetitions.

Lemma expands_cat_last : forall sp ts x, solid (TCat sp ts) -> Expands (TCat sp ts) x ->
  exists tl pre xl, last_opt ts = Some tl /\ x = pre ++ xl /\ xl <> [] /\ Expands tl xl.
Proof.
  intros sp ts x Hso Hx. pose proof (solid_nonempty _ _ Hso Hx) as Nx. apply expands_cat in Hx. destruct Hx as [xs [HF ->]].
  destruct ts as [|t0 ts0]; [inversion HF; subst; destruct (Nx eq_refl)|]. destruct (last_opt_nonempty (t0 :: ts0)) as [tl Htl]; [discriminate|].
  destruct (forall2_last _ _ _ _ HF Htl) as [pre [xl [-> Hxl]]]. exists tl, (concat pre), xl. rewrite concat_snoc.
  split; [exact Htl|]. split; [reflexivity|]. split; [|exact Hxl]. exact (solid_nonempty tl xl (solid_child _ _ Hso (last_opt_in _ _ Htl)) Hxl).
Qed.

Lemma expands_rep_last : forall sp b lo hi x, solid (TRep sp b lo hi) -> Expands (TRep sp b lo hi) x ->
  exists pre xl, x = pre ++ xl /\ xl <> [] /\ Expands b xl.
Proof.
  intros sp b lo hi x Hso Hx. pose proof (solid_nonempty _ _ Hso Hx) as Nx. apply expands_rep in Hx. destruct Hx as [ys [_ [HF ->]]].
  destruct (list_snoc_case ys) as [->|[pre [yl ->]]]; [destruct (Nx eq_refl)|]. apply Forall_app in HF. destruct HF as [_ HF]. inversion HF as [|? ? Hyl _]; subst.
  exists (concat pre), yl. rewrite concat_snoc. split; [reflexivity|]. split; [exact (solid_nonempty b yl (solid_body _ _ _ _ Hso) Hyl)|exact Hyl].
Qed.

Lemma may_end_sep_last : forall sp ts tl, (forall m, In m ts -> fnull m = false) -> last_opt ts = Some tl ->
  may_end_sep (TCat sp ts) = false -> may_end_sep tl = false.
Proof.
  intros sp ts tl Hf Hl Hm. cbn [may_end_sep] in Hm. induction ts as [|t0 r IHr]; [discriminate|]. destruct r as [|t1 r'].
  - inversion Hl; subst. cbn [forallb] in Hm. apply orb_false_iff in Hm. exact (proj1 Hm).
  - cbn [forallb] in Hm. rewrite (Hf t1) in Hm by (right; left; reflexivity). cbn [andb] in Hm.
    apply IHr; [intros m Hin; apply Hf; right; exact Hin|exact Hl|exact Hm].
Qed.

Lemma no_trailing_sep_solid : forall t, solid t -> may_end_sep t = false -> forall x, Expands t x -> last_opt x <> Some LSep.
Proof.
  induction t as [t IH] using tok_children_ind. intros Hso Hm x Hx. destruct t as [sp l|sp bs|sp ts|sp b lo hi].
  - apply expands_leaf in Hx. subst x. destruct l; discriminate.
  - apply expands_alt in Hx. destruct Hx as [b [Hin Hxb]]. apply (IH b Hin (solid_child _ _ Hso Hin)); [|exact Hxb].
    cbn [may_end_sep] in Hm. destruct (may_end_sep b) eqn:E; [|reflexivity]. rewrite <- Hm. symmetry. apply existsb_exists. eauto.
  - destruct (expands_cat_last sp ts x Hso Hx) as [tl [pre [xl [Htl [-> [Nl Hxl]]]]]]. pose proof (last_opt_in _ _ Htl) as Hin.
    rewrite last_opt_app_r by exact Nl. apply (IH tl Hin (solid_child _ _ Hso Hin)); [|exact Hxl].
    exact (may_end_sep_last sp ts tl (fun m Hm' => Hso m (sub_child m m (TCat sp ts) Hm' (sub_refl m))) Htl Hm).
  - destruct (expands_rep_last sp b lo hi x Hso Hx) as [pre [xl [-> [Nl Hxl]]]].
    rewrite last_opt_app_r by exact Nl. exact (IH b (or_introl eq_refl) (solid_body _ _ _ _ Hso) Hm xl Hxl).
Qed.

Section Chain.
Variable q : leaf -> bool.

Definition gfirst (x : list leaf) : bool := match x with a :: _ => q a | [] => false end.
Definition glast (x : list leaf) : bool := match last_opt x with Some a => q a | None => false end.
(* [pq]: the leaf before the sequence satisfies [q] *)
Fixpoint gchain (pq : bool) (x : list leaf) : bool :=
  match x with [] => true | a :: r => negb (pq && q a) && gchain (q a) r end.

Lemma gfirst_app : forall x y, x <> [] -> gfirst (x ++ y) = gfirst x.
Proof. intros [|a x] y H; [congruence|reflexivity]. Qed.

Lemma glast_app : forall x y, y <> [] -> glast (x ++ y) = glast y.
Proof. intros x y Hy. unfold glast. rewrite last_opt_app_r by exact Hy. reflexivity. Qed.

Lemma glast_concat_snoc : forall (pre : list (list leaf)) b, b <> [] -> glast (concat (pre ++ [b])) = glast b.
Proof. intros pre b Hb. rewrite concat_snoc. apply glast_app. exact Hb. Qed.

Lemma gchain_prev : forall pq y, gchain pq y = negb (pq && gfirst y) && gchain false y.
Proof. intros pq [|a y]; cbn [gchain gfirst andb negb]; [rewrite andb_false_r|]; reflexivity. Qed.

Lemma gchain_app : forall x y pq, x <> [] -> gchain pq (x ++ y) = gchain pq x && gchain (glast x) y.
Proof.
  induction x as [|a x IH]; intros y pq Hx; [congruence|]. cbn [app gchain]. destruct x as [|b x'].
  - cbn [app gchain]. rewrite andb_true_r. reflexivity.
  - rewrite IH by discriminate. apply andb_assoc.
Qed.

Fixpoint gjuncs (xs : list (list leaf)) : Prop :=
  match xs with x :: ((y :: _) as r) => glast x && gfirst y = false /\ gjuncs r | _ => True end.

Lemma gchain_concat : forall xs, Forall (fun x => x <> [] /\ gchain false x = true) xs -> gjuncs xs -> gchain false (concat xs) = true.
Proof.
  induction xs as [|x xs IH]; intros HF HJ; [reflexivity|]. inversion HF as [|? ? [Nx Cx] HF']; subst. cbn [concat].
  destruct xs as [|y ys]; [cbn [concat]; rewrite app_nil_r; exact Cx|]. destruct HJ as [Hj HJ'].
  inversion HF' as [|? ? [Ny _] _]; subst.
  rewrite gchain_app, Cx, gchain_prev, (IH HF' HJ') by exact Nx. cbn [concat]. rewrite gfirst_app, Hj by exact Ny. reflexivity.
Qed.

Lemma copies_gjuncs : forall (E : list leaf -> Prop) ys, Forall E ys -> (forall y y', E y -> E y' -> glast y && gfirst y' = false) -> gjuncs ys.
Proof.
  intros E ys HF Hw. induction HF as [|y ys Hy HF' IH]; [exact I|]. destruct HF' as [|y2 ys2 Hy2 HF2]; [exact I|].
  split; [exact (Hw _ _ Hy Hy2)|exact IH].
Qed.

Lemma gchain_breaks : forall pre xl y pq, glast xl = true -> gfirst y = true -> gchain pq (pre ++ xl ++ y) = false.
Proof.
  intros pre xl y pq Hl Hf. assert (Nx : xl <> []) by (intros ->; discriminate).
  assert (H : forall pq', gchain pq' (xl ++ y) = false).
  { intros pq'. rewrite gchain_app, Hl, (gchain_prev true y), Hf by exact Nx. apply andb_false_r. }
  destruct pre as [|a pre']; [apply H|]. rewrite gchain_app, H by discriminate. apply andb_false_r.
Qed.
End Chain.

Section Ends.
Variables (p : tok -> bool) (q : leaf -> bool).
Hypothesis p_lift : forall t, p t = match t with TLeaf _ l => q l | _ => false end.

Lemma first_member_first : forall tk sp l rest x, concatenation tk = TLeaf sp l :: rest -> Expands tk x -> gfirst q x = q l.
Proof.
  intros tk sp l rest x Hc Hx. apply expands_concatenation in Hx. destruct Hx as [xs [HF ->]]. rewrite Hc in HF.
  inversion HF as [|? x0 ? xs' H0 _]; subst. apply expands_leaf in H0. subst x0. reflexivity.
Qed.

Lemma last_member_last : forall tk sp l x, last_opt (concatenation tk) = Some (TLeaf sp l) -> Expands tk x -> glast q x = q l.
Proof.
  intros tk sp l x Hc Hx. apply expands_concatenation in Hx. destruct Hx as [xs [HF ->]].
  destruct (forall2_last _ _ _ _ HF Hc) as [pre [b [-> Hb]]]. apply expands_leaf in Hb. subst b.
  rewrite glast_concat_snoc by discriminate. reflexivity.
Qed.

Lemma starts_sound : forall t, solid t -> starts_with p t = false -> forall x, Expands t x -> gfirst q x = false.
Proof.
  induction t as [t IH] using tok_children_ind. intros Hso Hs x Hx.
  destruct t as [sp l|sp bs|sp ts|sp b lo hi]; cbn [starts_with children] in *; apply orb_false_iff in Hs; destruct Hs as [Hp Hs].
  - apply expands_leaf in Hx. subst x. rewrite p_lift in Hp. exact Hp.
  - apply expands_alt in Hx. destruct Hx as [b [Hin Hxb]]. apply (IH b Hin (solid_child _ _ Hso Hin)); [|exact Hxb].
    destruct (starts_with p b) eqn:E; [|reflexivity]. rewrite <- Hs. symmetry. apply existsb_exists. eauto.
  - apply expands_concatenation in Hx. destruct Hx as [xs [HF ->]]. cbn [concatenation] in HF.
    destruct HF as [|t0 x0 ts' xs' Hx0 _]; [reflexivity|]. assert (S0 : solid t0) by (apply (solid_child _ _ Hso); left; reflexivity).
    cbn [concat]. rewrite gfirst_app by exact (solid_nonempty _ _ S0 Hx0). apply (IH t0 (or_introl eq_refl) S0 Hs _ Hx0).
  - apply expands_rep in Hx. destruct Hx as [xs [_ [HF ->]]]. destruct HF as [|y ys Hy _]; [reflexivity|].
    pose proof (solid_body _ _ _ _ Hso) as Sb. cbn [concat]. rewrite gfirst_app by exact (solid_nonempty _ _ Sb Hy). apply (IH b (or_introl eq_refl) Sb Hs _ Hy).
Qed.

Lemma ends_sound : forall t, solid t -> ends_with p t = false -> forall x, Expands t x -> glast q x = false.
Proof.
  induction t as [t IH] using tok_children_ind. intros Hso Hs x Hx. destruct t as [sp l|sp bs|sp ts|sp b lo hi].
  - cbn [ends_with] in Hs. apply orb_false_iff in Hs. apply expands_leaf in Hx. subst x. rewrite p_lift in Hs. exact (proj1 Hs).
  - cbn [ends_with] in Hs. apply orb_false_iff in Hs. destruct Hs as [_ Hs].
    apply expands_alt in Hx. destruct Hx as [b [Hin Hxb]]. apply (IH b Hin (solid_child _ _ Hso Hin)); [|exact Hxb].
    destruct (ends_with p b) eqn:E; [|reflexivity]. rewrite <- Hs. symmetry. apply existsb_exists. eauto.
  - destruct (expands_cat_last sp ts x Hso Hx) as [tl [pre [xl [Htl [-> [Nl Hxl]]]]]]. pose proof (last_opt_in _ _ Htl) as Hin.
    rewrite (ends_with_cat _ sp _ tl Htl) in Hs. apply orb_false_iff in Hs.
    rewrite glast_app by exact Nl. exact (IH tl Hin (solid_child _ _ Hso Hin) (proj2 Hs) _ Hxl).
  - cbn [ends_with] in Hs. apply orb_false_iff in Hs. destruct (expands_rep_last sp b lo hi x Hso Hx) as [pre [xl [-> [Nl Hxl]]]].
    rewrite glast_app by exact Nl. exact (IH b (or_introl eq_refl) (solid_body _ _ _ _ Hso) (proj2 Hs) _ Hxl).
Qed.

(* what the outer context of an item forbids at the two ends of the item's expansions *)
Definition gctx (o : outer) (x : list leaf) : Prop :=
  (opt_any (ends_with p) (o_left o) = true -> gfirst q x = false) /\ (opt_any (starts_with p) (o_right o) = true -> glast q x = false).

Lemma gctx_concat : forall o xs, Forall (fun x => x <> [] /\ gctx o x) xs -> gctx o (concat xs).
Proof.
  intros o xs HF. split; intros H.
  - destruct HF as [|x xs' [Nx [Cx _]] _]; [reflexivity|]. cbn [concat]. rewrite gfirst_app by exact Nx. exact (Cx H).
  - destruct (list_snoc_case xs) as [->|[pre [xl ->]]]; [reflexivity|]. apply Forall_app in HF. destruct HF as [_ HF].
    inversion HF as [|? ? [Nx [_ Cx]] _]; subst. rewrite glast_concat_snoc by exact Nx. exact (Cx H).
Qed.

Fixpoint apart (ts : list tok) : Prop :=
  match ts with a :: ((b :: _) as r) => p a && p b = false /\ apart r | _ => True end.
End Ends.
