(* DepthRootedRep.v -- C10 with repetitions and the rootedness condition stated through the query has_root, as in the property's
   quantifier: for a glob that builds, with repetitions that are written out at least once, have a single depth term and a body that
   begins and ends with a leaf, and that starts plainly (never "sometimes rooted"), every canonical path of the documented language
   that begins with a separator exactly when the glob reports "always rooted" has a component count within the reported variance. *)
From WaxModel Require Import Base Spec Variance Fold Glob.
From WaxProofs Require Import SpecFacts RuleFacts DepthFacts DepthRepFacts BuiltNonempty ParseShape DepthRooted.
From WaxProofs Require Import ParseRel BuiltFacts RuleAdjRep RuleZomRep RootRep RepClosed.
Local Open Scope N_scope.

Section DepthRootedRep.
Variable orbit : char -> list char.
Hypothesis orbit_nosep : forall c d, In d (orbit c) -> d <> SEP.

Theorem built_rep_depth_sound_rooted : forall e t r v p,
  build e = BuildOk t r -> simple_reps t = true -> rep_class t = true -> starts_plainly t = true ->
  depth_variance t = Ok v -> depth_closed_variant t = false ->
  Lang orbit t p -> canonical p = true -> 1 <= ncomp p ->
  starts_sep p = (match has_root t with Always => true | _ => false end) ->
  in_variance (ncomp p) v.
Proof.
  intros e t r v p Hb Hs Hrc Hsp Hv Hcv HL Hcan Hn Hroot.
  eapply (built_rep_depth_sound_lang orbit orbit_nosep); try eassumption.
  intros x Hx _. rewrite Hroot. pose proof (built_nonempty_branches e t r Hb) as Hne. destruct (build_ok_inv e t r Hb) as [Ep _].
  destruct (has_root_fold_some t Hne) as [w Hw]. unfold has_root. rewrite Hw.
  assert (Hns : w <> Sometimes).
  { intros ->. apply (built_never_sometimes_r e t r Hb Hsp). unfold has_root. rewrite Hw. reflexivity. }
  symmetry. exact (root_expansions_solid t (built_bounds_ok e t r Hb) Hne (shr_solid t Hne (sh_shr t (parse_sh e t Ep) Hrc)) w Hw Hns x Hx).
Qed.

End DepthRootedRep.
