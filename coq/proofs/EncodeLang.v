(* EncodeLang.v -- C01: on the class [trees_exact] the program the encoder emits has exactly the documented
   language: sem (encode t) w <-> Lang t w, for every token tree and every text.  By induction over the tree, with the
   claim generalised to every admissible pair of flags ([agrees]): the leaf case pins the flags ([has_ok]), repetition
   and concatenation use [convert_tok] to re-flag pieces. *)
From WaxModel Require Import Base Token Regex Spec Encode.
From WaxProofs Require Import EncodeFacts SpecFacts.

Section EncodeLang.
Variable orbit : char -> list char.
Notation sem := (Regex.sem orbit).
Notation FlatMatch := (Spec.FlatMatch orbit).
Notation leaf_piece := (Spec.leaf_piece orbit).

Lemma ends_sep_nil : ends_sep [] = false. Proof. reflexivity. Qed.
Lemma ends_sep_single : ends_sep [SEP] = true. Proof. reflexivity. Qed.
Lemma ends_sep_snoc : forall u, ends_sep (u ++ [SEP]) = true.
Proof. intros u. rewrite ends_sep_snoc_irrelevant. apply N.eqb_refl. Qed.

Lemma sem_opt_sep : forall w, sem (ROpt RSep) w <-> w = [] \/ w = [SEP].
Proof. intros w. cbn [Regex.sem]. tauto. Qed.

(* the encodings of a tree wildcard are its documented language by position, except the rooted first-not-last form
   `[/].*[/]?`, which the suite pins and which is not [tree_piece] (the known class rooted_first_tree): hence the hypothesis *)
Lemma enc_tree_piece :
  forall cap s e root w, (root && s && negb e) = false ->
    (sem (enc_tree cap s e root) w <-> tree_piece s e root w = true).
Proof.
  intros cap s e root w Hn.
  destruct s, e; [rewrite tree_piece_only|rewrite tree_piece_first|rewrite tree_piece_last|rewrite tree_piece_mid].
  - destruct root; cbn [enc_tree grp Regex.sem negb orb]; [|tauto]. rewrite starts_sep_iff. split.
    + intros [u [v [-> [-> _]]]]. eexists. reflexivity.
    + intros [u ->]. exists [SEP], u. auto.
  - destruct root; [discriminate|]. cbn [enc_tree grp Regex.sem]. rewrite orb_true_iff, ends_sep_iff. split.
    + intros [[->| ->]|[u [v [-> [_ ->]]]]]; [right; reflexivity|left; exists []; reflexivity|left; exists u; reflexivity].
    + intros [[u ->]|H]; [right; exists u, [SEP]; auto|left; left; destruct w; [reflexivity|discriminate]].
  - cbn [enc_tree grp Regex.sem]. rewrite orb_true_iff, starts_sep_iff. split.
    + intros [[->| ->]|[u [v [-> [-> _]]]]]; [right; reflexivity|left; exists []; reflexivity|left; exists v; reflexivity].
    + intros [[u ->]|H]; [right; exists [SEP], u; auto|left; left; destruct w; [reflexivity|discriminate]].
  - cbn [enc_tree enc_tree_mid grp Regex.sem]. rewrite andb_true_iff, starts_sep_iff, ends_sep_iff. split.
    + intros [->|[u [v [-> [-> [u' [v' [-> [_ ->]]]]]]]]]; [split; exists []; reflexivity|].
      split; [eexists; reflexivity|exists (SEP :: u'); reflexivity].
    + intros [[u ->] [[|c u'] Hu]]; cbn [app] in Hu; inversion Hu; subst; [left; reflexivity|].
      right. exists [SEP], (u' ++ [SEP]). split; [reflexivity|]. split; [reflexivity|]. exists u', [SEP]. auto.
Qed.

(* the pieces of a concatenation of expansions: each gets its true position *)
Fixpoint FlatMatchs (f l : bool) (xs : list (list leaf)) (w : str) : Prop :=
  match xs with
  | [] => w = []
  | x :: xs' => exists u v, w = u ++ v /\ FlatMatch f (l && forallb is_nil xs') x u /\ FlatMatchs (f && is_nil x) l xs' v
  end.

Lemma flatmatch_concat : forall xs f l w, FlatMatch f l (concat xs) w <-> FlatMatchs f l xs w.
Proof.
  induction xs as [|x xs IH]; intros f l w.
  - cbn [concat FlatMatchs]. apply flatmatch_nil.
  - cbn [concat FlatMatchs]. rewrite flatmatch_app. rewrite is_nil_concat.
    split; intros [u [v [-> [Hu Hv]]]]; exists u, v; (split; [reflexivity|]); (split; [exact Hu|]); apply IH; exact Hv.
Qed.

(* a flag only matters to a tree wildcard at that end of the sequence *)
Definition head_tree (x : list leaf) : bool := match x with LTree _ :: _ => true | _ => false end.
Fixpoint last_tree (x : list leaf) : bool :=
  match x with
  | [] => false
  | [LTree _] => true
  | [_] => false
  | _ :: x' => last_tree x'
  end.

Lemma convert_first : forall x f1 f2 l w, (f1 <> f2 -> head_tree x = false) -> FlatMatch f1 l x w -> FlatMatch f2 l x w.
Proof.
  intros x f1 f2 l w Hh H. destruct (Bool.bool_dec f1 f2) as [->|Hn]; [exact H|].
  inversion H as [|f0 l0 a x0 u v Hp Hrest]; subst; [constructor|].
  constructor; [|exact Hrest]. eapply leaf_piece_flags; [|exact Hp].
  destruct a; try reflexivity. discriminate (Hh Hn).
Qed.

Lemma flatmatch_first_irrelevant : forall x f f' l w, head_tree x = false -> FlatMatch f l x w -> FlatMatch f' l x w.
Proof. intros x f f' l w Hh. apply convert_first. intros _. exact Hh. Qed.

Lemma last_tree_cons : forall a x, x <> [] -> last_tree (a :: x) = last_tree x.
Proof. intros a [|b x] H; [congruence|]. destruct a; reflexivity. Qed.

Lemma convert_last : forall x f l1 l2 w, (l1 <> l2 -> last_tree x = false) -> FlatMatch f l1 x w -> FlatMatch f l2 x w.
Proof.
  intros x f l1 l2 w Hh H. destruct (Bool.bool_dec l1 l2) as [->|Hn]; [exact H|]. specialize (Hh Hn). revert f w Hh H.
  induction x as [|a x IH]; intros f w Hl H.
  - inversion H; subst. constructor.
  - inversion H as [|f0 l0 a0 x0 u v Hp Hrest]; subst. destruct x as [|b x'].
    + cbn [is_nil andb] in *. rewrite andb_true_r in Hp. inversion Hrest; subst.
      constructor; [|constructor]. cbn [is_nil]. rewrite andb_true_r.
      eapply leaf_piece_flags; [|exact Hp]. destruct a; try reflexivity. discriminate.
    + rewrite last_tree_cons in Hl by discriminate. cbn [is_nil] in *. rewrite andb_false_r in *.
      constructor; [cbn [is_nil]; rewrite andb_false_r; exact Hp|]. eapply IH; [exact Hl|exact Hrest].
Qed.

Lemma head_tree_app : forall x y, head_tree (x ++ y) = if is_nil x then head_tree y else head_tree x.
Proof. intros [|a x] y; reflexivity. Qed.

Lemma last_tree_app : forall x y, last_tree (x ++ y) = if is_nil y then last_tree x else last_tree y.
Proof.
  induction x as [|a x IH]; intros y.
  - cbn [app]. destruct y; reflexivity.
  - destruct y as [|b y].
    + rewrite app_nil_r. reflexivity.
    + cbn [app is_nil]. rewrite last_tree_cons by (destruct x; discriminate). rewrite IH. reflexivity.
Qed.

Lemma forall2_concat_nil : forall ts xs, Forall2 Expands ts xs -> concat xs = [] -> forallb fnull ts = true.
Proof. intros ts xs HF Hc. apply (expands_nil_fnull (TCat (0, 0)%N ts)). rewrite <- Hc. constructor. exact HF. Qed.

(* what [stable_gen] does along a concatenation, as a function of its own *)
Fixpoint stable_cat (stab : tok -> bool -> poss -> bool -> poss -> bool) (s : bool) (ps : poss) (e : bool) (pe : poss)
    (ts : list tok) (first pre : bool) : bool :=
  match ts with
  | [] => true
  | t0 :: ts' =>
      let last := is_nil ts' in
      let post := forallb fnull ts' in
      let ps0 := if first then ps else mkPoss (can_t ps && pre) true in
      let pe0 := if last then pe else mkPoss (can_t pe && post) true in
      stab t0 (s && first) ps0 (e && last) pe0 && stable_cat stab s ps e pe ts' false (pre && fnull t0)
  end.

Lemma stable_gen_cat : forall strict sp ts s ps e pe,
  stable_gen strict (TCat sp ts) s ps e pe = stable_cat (stable_gen strict) s ps e pe ts true true.
Proof.
  intros strict sp ts s ps e pe. cbn [stable_gen].
  match goal with |- ?F ts true true = _ =>
    assert (G : forall l first pre, F l first pre = stable_cat (stable_gen strict) s ps e pe l first pre)
  end.
  { induction l as [|t0 l IH]; intros first pre; [reflexivity|]. cbn [stable_cat]. rewrite <- IH. reflexivity. }
  apply G.
Qed.

(* the possible positions of an element of a concatenation, as [stable_cat] computes them *)
Definition ps_at (ps : poss) (first pre : bool) : poss := if first then ps else mkPoss (can_t ps && pre) true.
Definition pe_at (pe : poss) (last post : bool) : poss := if last then pe else mkPoss (can_t pe && post) true.

Lemma stable_cat_cons : forall stab s ps e pe t0 ts first pre,
  stable_cat stab s ps e pe (t0 :: ts) first pre =
  stab t0 (s && first) (ps_at ps first pre) (e && is_nil ts) (pe_at pe (is_nil ts) (forallb fnull ts)) &&
  stable_cat stab s ps e pe ts false (pre && fnull t0).
Proof. reflexivity. Qed.

Definition both (p : poss) : bool := can_t p && can_f p.

Lemma both_iff : forall p, both p = true <-> can_t p = true /\ can_f p = true.
Proof. intros p. apply andb_true_iff. Qed.

Lemma both_add_f : forall p (again : bool), both p = true -> both (if again then poss_add_f p else p) = true.
Proof. intros p [] H; [|exact H]. apply both_iff in H. apply both_iff. split; [apply H|reflexivity]. Qed.

(* where both "first" and "not first" are possible, no expansion begins with a tree wildcard; likewise at the end.
   The argument never looks at the clause [strict] adds, so it is made for both values. *)
Definition head_free (strict : bool) (t : tok) : Prop :=
  forall s ps e pe x, stable_gen strict t s ps e pe = true -> both ps = true -> Expands t x -> head_tree x = false.
Definition last_free (strict : bool) (t : tok) : Prop :=
  forall s ps e pe x, stable_gen strict t s ps e pe = true -> both pe = true -> Expands t x -> last_tree x = false.

Lemma cat_head_free : forall strict s ps e pe ts xs first pre,
  Forall (head_free strict) ts ->
  stable_cat (stable_gen strict) s ps e pe ts first pre = true ->
  can_t ps = true -> pre = true -> (first = true -> can_f ps = true) ->
  Forall2 Expands ts xs -> head_tree (concat xs) = false.
Proof.
  intros strict s ps e pe ts xs first pre IH Hs Ht Hpre Hfirst HF. subst pre. revert first IH Hs Hfirst.
  induction HF as [|t0 x0 ts' xs' Hx0 HF' IHF]; intros first IH Hs Hfirst; [reflexivity|].
  rewrite stable_cat_cons in Hs. apply andb_prop in Hs. destruct Hs as [Hs0 Hs']. inversion IH as [|? ? IH0 IH']; subst.
  cbn [concat]. rewrite head_tree_app.
  assert (Hh0 : head_tree x0 = false).
  { eapply IH0; [exact Hs0| |exact Hx0]. apply both_iff. unfold ps_at. destruct first; cbn [can_t can_f]; rewrite Ht; auto. }
  destruct x0; [|exact Hh0]. cbn [is_nil]. rewrite (expands_nil_fnull t0 Hx0) in Hs'.
  apply (IHF false IH' Hs'). discriminate.
Qed.

Lemma cat_last_free : forall strict s ps e pe ts xs first pre,
  Forall (last_free strict) ts ->
  stable_cat (stable_gen strict) s ps e pe ts first pre = true ->
  both pe = true -> Forall2 Expands ts xs -> last_tree (concat xs) = false.
Proof.
  intros strict s ps e pe ts xs first pre IH Hs Hb HF. revert first pre IH Hs. apply both_iff in Hb. destruct Hb as [Ht Hf].
  induction HF as [|t0 x0 ts' xs' Hx0 HF' IHF]; intros first pre IH Hs; [reflexivity|].
  rewrite stable_cat_cons in Hs. apply andb_prop in Hs. destruct Hs as [Hs0 Hs']. inversion IH as [|? ? IH0 IH']; subst.
  cbn [concat]. rewrite last_tree_app.
  destruct (concat xs') eqn:Hc; cbn [is_nil]; [|eapply IHF; eassumption].
  eapply IH0; [exact Hs0| |exact Hx0]. apply both_iff. unfold pe_at.
  destruct (is_nil ts'); cbn [can_t can_f]; [auto|]. rewrite Ht, (forall2_concat_nil ts' xs' HF' Hc). auto.
Qed.

Lemma stable_both_head : forall strict t, head_free strict t.
Proof.
  intros strict. induction t as [sp l|sp bs IH|sp ts IH|sp b lo hi IH] using tok_ind'; intros s ps e pe x Hs Hb Hx.
  - apply expands_leaf in Hx. subst x. destruct l; try reflexivity. cbn [stable_gen] in Hs.
    apply both_iff in Hb. destruct Hb as [Ht Hf]. unfold poss_ok in Hs. rewrite Ht, Hf in Hs. destruct s; discriminate.
  - apply expands_alt in Hx. destruct Hx as [b [Hin Hxb]]. cbn [stable_gen] in Hs. rewrite forallb_forall in Hs.
    rewrite Forall_forall in IH. exact (IH b Hin s ps e pe x (Hs b Hin) Hb Hxb).
  - apply expands_cat in Hx. destruct Hx as [xs [HF ->]]. rewrite stable_gen_cat in Hs. apply both_iff in Hb. destruct Hb as [Ht Hf].
    exact (cat_head_free strict s ps e pe ts xs true true IH Hs Ht eq_refl (fun _ => Hf) HF).
  - apply expands_rep in Hx. destruct Hx as [xs [_ [HF ->]]]. cbn [stable_gen] in Hs. apply (both_add_f ps (can_repeat hi)) in Hb.
    induction HF as [|x0 xs' Hx0 _ IHF]; [reflexivity|].
    cbn [concat]. rewrite head_tree_app. destruct (is_nil x0); [exact IHF|]. exact (IH s _ e _ x0 Hs Hb Hx0).
Qed.

Lemma stable_both_last : forall strict t, last_free strict t.
Proof.
  intros strict. induction t as [sp l|sp bs IH|sp ts IH|sp b lo hi IH] using tok_ind'; intros s ps e pe x Hs Hb Hx.
  - apply expands_leaf in Hx. subst x. destruct l; try reflexivity. cbn [stable_gen] in Hs.
    apply both_iff in Hb. destruct Hb as [Ht Hf]. unfold poss_ok in Hs. rewrite Ht, Hf in Hs.
    destruct e; cbn [negb andb] in Hs; rewrite andb_false_r in Hs; discriminate.
  - apply expands_alt in Hx. destruct Hx as [b [Hin Hxb]]. cbn [stable_gen] in Hs. rewrite forallb_forall in Hs.
    rewrite Forall_forall in IH. exact (IH b Hin s ps e pe x (Hs b Hin) Hb Hxb).
  - apply expands_cat in Hx. destruct Hx as [xs [HF ->]]. rewrite stable_gen_cat in Hs.
    exact (cat_last_free strict s ps e pe ts xs true true IH Hs Hb HF).
  - apply expands_rep in Hx. destruct Hx as [xs [_ [HF ->]]]. cbn [stable_gen] in Hs. apply (both_add_f pe (can_repeat hi)) in Hb.
    induction HF as [|x0 xs' Hx0 _ IHF]; [reflexivity|].
    cbn [concat]. rewrite last_tree_app. destruct (is_nil (concat xs')); [|exact IHF]. exact (IH s _ e _ x0 Hs Hb Hx0).
Qed.

Lemma stable_cat_last : forall strict s ps e pe ts xs first pre,
  stable_cat (stable_gen strict) s ps e pe ts first pre = true ->
  both pe = true -> Forall2 Expands ts xs -> last_tree (concat xs) = false.
Proof.
  intros strict s ps e pe ts xs first pre. apply cat_last_free. apply Forall_forall. intros t _. apply stable_both_last.
Qed.

(* [has p b]: [b] is a value the flag may take *)
Definition has (p : poss) (b : bool) : bool := if b then can_t p else can_f p.

Lemma has_both : forall p b1 b2, has p b1 = true -> has p b2 = true -> b1 <> b2 -> both p = true.
Proof. intros p [] [] H1 H2 Hn; try congruence; unfold both, has in *; rewrite H1, H2; reflexivity. Qed.

Lemma has_andb : forall p b c, (b = true -> c = true -> can_t p = true) -> can_f p = true -> has p (b && c) = true.
Proof. intros p [] [] Ht Hf; cbn; auto. Qed.

Lemma convert_tok : forall t s ps e pe x f1 f2 l1 l2 w,
  stable_gen true t s ps e pe = true -> Expands t x ->
  has ps f1 = true -> has ps f2 = true -> has pe l1 = true -> has pe l2 = true ->
  FlatMatch f1 l1 x w -> FlatMatch f2 l2 x w.
Proof.
  intros t s ps e pe x f1 f2 l1 l2 w Hs Hx Hf1 Hf2 Hl1 Hl2 H.
  eapply convert_first; [|eapply convert_last; [|exact H]].
  - intros Hn. eapply stable_both_head; [exact Hs| |exact Hx]. exact (has_both ps f1 f2 Hf1 Hf2 Hn).
  - intros Hn. eapply stable_both_last; [exact Hs| |exact Hx]. exact (has_both pe l1 l2 Hl1 Hl2 Hn).
Qed.

(* well-formed token trees: valid class ranges, ordered bounds, non-empty alternations *)
Fixpoint wf_tok (t : tok) : bool :=
  match t with
  | TLeaf _ (LClass _ a) => forallb arch_valid a
  | TLeaf _ _ => true
  | TAlt _ bs => negb (is_nil bs) && forallb wf_tok bs
  | TCat _ ts => forallb wf_tok ts
  | TRep _ b lo hi => wf_tok b && match hi with Some h => lo <=? h | None => true end
  end.

Lemma wf_tok_alt : forall sp bs, wf_tok (TAlt sp bs) = true <-> bs <> [] /\ Forall (fun b => wf_tok b = true) bs.
Proof. intros sp bs. cbn [wf_tok]. rewrite andb_true_iff, is_nil_false, forallb_Forall. reflexivity. Qed.

Lemma wf_tok_cat : forall sp ts, wf_tok (TCat sp ts) = true <-> Forall (fun t => wf_tok t = true) ts.
Proof. intros sp ts. apply forallb_Forall. Qed.

(* The invariant of the induction.  [ps] and [pe] are the sets of truth values that "nothing precedes" and "nothing
   follows in the flat sequence" can take.  [stable_gen] guarantees that where both values are possible no tree wildcard
   sits at that end ([stable_both_head], [stable_both_last]), so among admissible flags the flags do not matter
   ([convert_tok]), and the encoding with edges [s], [e] is [FlatMatch f l] for every admissible [f], [l]. *)
Definition agrees (t : tok) : Prop :=
  forall cap s ps e pe f l w,
    stable_gen true t s ps e pe = true -> has ps f = true -> has pe l = true ->
    (sem (enc_tok cap t s e) w <-> exists x, Expands t x /\ FlatMatch f l x w).

Lemma has_ok : forall a p b, poss_ok a p = true -> has p b = true -> b = a.
Proof. intros [] p [] Ho Hh; try reflexivity; unfold poss_ok, has in *; rewrite Hh in Ho; discriminate. Qed.

Lemma enc_leaf_piece : forall cap s e l0 w,
  match l0 with LClass _ a => forallb arch_valid a = true | LTree root => (root && s && negb e) = false | _ => True end ->
  (sem (enc_leaf cap s e l0) w <-> leaf_piece s e l0 w).
Proof.
  intros cap s e l0 w H. destruct l0; cbn [leaf_piece]; try (cbn [enc_leaf Regex.sem]; reflexivity).
  - apply class_sem. exact H.
  - apply zom_sem.
  - apply enc_tree_piece. exact H.
Qed.

Lemma agrees_leaf : forall sp l0, wf_tok (TLeaf sp l0) = true -> agrees (TLeaf sp l0).
Proof.
  intros sp l0 Hwf cap s ps e pe f l w Hs Hf Hl. cbn [enc_tok].
  assert (E : sem (enc_leaf cap s e l0) w <-> leaf_piece f l l0 w).
  { destruct l0; try (apply (enc_leaf_piece cap s e); try exact I; exact Hwf).
    (* a tree wildcard: the admissible flags are the edges it was encoded with *)
    cbn [stable_gen] in Hs. apply andb_prop in Hs. destruct Hs as [Hs Hr]. apply andb_prop in Hs. destruct Hs as [Hps Hpe].
    rewrite (has_ok s ps f Hps Hf), (has_ok e pe l Hpe Hl). apply enc_leaf_piece. apply negb_true_iff in Hr. exact Hr. }
  rewrite E, <- flatmatch_single. split.
  - intros H. exists [l0]. split; [constructor|exact H].
  - intros [x [Hx H]]. apply expands_leaf in Hx. subst x. exact H.
Qed.

Lemma agrees_alt : forall sp bs, wf_tok (TAlt sp bs) = true -> Forall agrees bs -> agrees (TAlt sp bs).
Proof.
  intros sp bs Hwf IH cap s ps e pe f l w Hs Hf Hl.
  apply wf_tok_alt in Hwf. destruct Hwf as [Hne _].
  cbn [enc_tok stable_gen] in *. unfold grp. cbn [Regex.sem].
  rewrite sem_ralt_list by (destruct bs; [congruence|discriminate]).
  rewrite forallb_forall in Hs. rewrite Forall_forall in IH. split.
  - intros [r [Hin Hr]]. apply in_map_iff in Hin. destruct Hin as [b [<- Hin]]. cbn [Regex.sem] in Hr.
    apply (IH b Hin false s ps e pe f l w (Hs b Hin) Hf Hl) in Hr. destruct Hr as [x [Hx Hm]].
    exists x. split; [econstructor; eassumption|exact Hm].
  - intros [x [Hx Hm]]. apply expands_alt in Hx. destruct Hx as [b [Hin Hb]].
    exists (RGroup false (enc_tok false b s e)). split; [apply in_map_iff; exists b; split; [reflexivity|exact Hin]|].
    cbn [Regex.sem]. apply (IH b Hin false s ps e pe f l w (Hs b Hin) Hf Hl). exists x. split; assumption.
Qed.

Lemma norm_bounds_ordered : forall lo hi,
  (match hi with Some h => lo <=? h | None => true end) = true -> norm_bounds lo hi = (lo, hi).
Proof.
  intros lo [h|] H; [|reflexivity]. unfold norm_bounds. apply N.leb_le in H.
  destruct (N.ltb_spec h lo); [lia|reflexivity].
Qed.

Lemma has_add_f_false : forall p, has (poss_add_f p) false = true.
Proof. reflexivity. Qed.
Lemma has_add_f : forall p (again b : bool), has p b = true -> has (if again then poss_add_f p else p) b = true.
Proof. intros p [] [] H; try exact H. reflexivity. Qed.

Lemma iter_sem_concat : forall (L : str -> Prop) k w,
  iter_sem L k w <-> exists ws, length ws = k /\ Forall L ws /\ w = concat ws.
Proof.
  intros L k w. split.
  - intros H. induction H as [|n u v Hu _ [ws [<- [HF ->]]]]; [exists []; auto|].
    exists (u :: ws). split; [reflexivity|]. split; [constructor; assumption|reflexivity].
  - intros [ws [<- [HF ->]]]. induction HF; cbn [length concat]; constructor; assumption.
Qed.

(* pieces each of which matches the same texts under every admissible pair of flags, "not first" and "not last" among
   them: together they match the concatenations of what they match one by one, under any admissible flags [f0], [l0] *)
Lemma flatmatchs_free : forall (X : list leaf -> Prop) ps pe f0 l0,
  (forall x f1 f2 l1 l2 u, X x -> has ps f1 = true -> has ps f2 = true -> has pe l1 = true -> has pe l2 = true ->
     FlatMatch f1 l1 x u -> FlatMatch f2 l2 x u) ->
  has ps false = true -> has pe false = true -> has ps f0 = true -> has pe l0 = true ->
  forall xs f l w, Forall X xs -> has ps f = true -> has pe l = true ->
    (FlatMatchs f l xs w <-> exists ws, w = concat ws /\ Forall2 (FlatMatch f0 l0) xs ws).
Proof.
  intros X ps pe f0 l0 Hconv Hpf Hpl Hf0 Hl0. induction xs as [|x xs IH]; intros f l w HF Hf Hl; cbn [FlatMatchs].
  - split; [intros ->; exists []; split; [reflexivity|constructor]|intros [ws [-> H]]; inversion H; reflexivity].
  - inversion HF as [|? ? Hx HF']; subst.
    assert (Hl' : has pe (l && forallb is_nil xs) = true) by (apply has_andb; [intros -> _; exact Hl|exact Hpl]).
    assert (Hf' : has ps (f && is_nil x) = true) by (apply has_andb; [intros -> _; exact Hf|exact Hpf]).
    split.
    + intros [u [v [-> [Hu Hv]]]]. apply (IH _ _ _ HF' Hf' Hl) in Hv. destruct Hv as [ws [-> HF2]].
      exists (u :: ws). split; [reflexivity|]. constructor; [|exact HF2]. exact (Hconv x _ _ _ _ u Hx Hf Hf0 Hl' Hl0 Hu).
    + intros [ws [-> H]]. inversion H as [|? u ? ws' Hu HF2]; subst. exists u, (concat ws'). split; [reflexivity|]. split.
      * exact (Hconv x _ _ _ _ u Hx Hf0 Hf Hl0 Hl' Hu).
      * apply (IH _ _ _ HF' Hf' Hl). exists ws'. split; [reflexivity|exact HF2].
Qed.

Lemma flatmatchs_le1 : forall xs f l w, (length xs <= 1)%nat ->
  (FlatMatchs f l xs w <-> exists ws, w = concat ws /\ Forall2 (FlatMatch f l) xs ws).
Proof.
  intros [|x [|x' xs]] f l w Hlen; [| |cbn in Hlen; lia]; cbn [FlatMatchs forallb is_nil].
  - split; [intros ->; exists []; split; [reflexivity|constructor]|intros [ws [-> H]]; inversion H; reflexivity].
  - rewrite andb_true_r. split.
    + intros [u [v [-> [Hu ->]]]]. exists [u]. split; [reflexivity|]. constructor; [exact Hu|constructor].
    + intros [ws [-> H]]. inversion H as [|? u ? ws' Hu H']; subst. inversion H'; subst. exists u, []. auto.
Qed.

Lemma agrees_rep : forall sp b lo hi, wf_tok (TRep sp b lo hi) = true -> agrees b -> agrees (TRep sp b lo hi).
Proof.
  intros sp b lo hi Hwf IHb cap s ps e pe f l w Hs Hf Hl.
  cbn [wf_tok] in Hwf. apply andb_prop in Hwf. destruct Hwf as [Hwb Hord].
  cbn [enc_tok]. rewrite (norm_bounds_ordered lo hi Hord). unfold grp. cbn [Regex.sem].
  cbn [stable_gen] in Hs.
  set (r := enc_tok false b s e).
  (* the pieces of an expansion match one by one, each under the flags of the whole: if the body may be repeated the
     flags of a piece do not matter, otherwise there is at most one piece *)
  assert (Hp : forall xs, in_bounds (length xs) lo hi -> Forall (Expands b) xs ->
            (FlatMatchs f l xs w <-> exists ws, w = concat ws /\ Forall2 (FlatMatch f l) xs ws)).
  { intros xs [_ Hb] HF. destruct (can_repeat hi) eqn:Ea.
    - apply (flatmatchs_free (Expands b) (poss_add_f ps) (poss_add_f pe)); try reflexivity; try assumption; try (apply (has_add_f _ true); assumption).
      intros x f1 f2 l1 l2 u Hx. exact (convert_tok b s _ e _ x f1 f2 l1 l2 u Hs Hx).
    - apply flatmatchs_le1. destruct hi as [h|]; [|discriminate]. cbn [can_repeat] in Ea. apply N.leb_gt in Ea. lia. }
  assert (Hbody : forall u, sem r u <-> exists x, Expands b x /\ FlatMatch f l x u).
  { intros u. exact (IHb false s _ e _ f l u Hs (has_add_f ps _ f Hf) (has_add_f pe _ l Hl)). }
  split.
  - intros [k [Hk Hit]]. apply iter_sem_concat in Hit. destruct Hit as [ws [<- [HFw ->]]].
    apply (forall_pieces _ _ _ Hbody) in HFw. destruct HFw as [xs [HX HF2]]. rewrite <- (forall2_length _ _ _ HF2) in Hk.
    exists (concat xs). split; [constructor; assumption|]. apply flatmatch_concat, (Hp xs Hk HX). exists ws. split; [reflexivity|exact HF2].
  - intros [x [Hx Hm]]. apply expands_rep in Hx. destruct Hx as [xs [Hb [HX ->]]].
    apply flatmatch_concat, (Hp xs Hb HX) in Hm. destruct Hm as [ws [-> HF2]].
    exists (length xs). split; [exact Hb|]. apply iter_sem_concat. exists ws. split; [symmetry; exact (forall2_length _ _ _ HF2)|].
    split; [|reflexivity]. apply (forall_pieces _ _ _ Hbody). exists xs. split; assumption.
Qed.

(* an element is last in the flat sequence only if what follows it expands to nothing *)
Lemma has_pe_at : forall pe l ts xs, has pe l = true -> Forall2 Expands ts xs ->
  has (pe_at pe (is_nil ts) (forallb fnull ts)) (l && is_nil (concat xs)) = true.
Proof.
  intros pe l ts xs Hl HF. destruct HF as [|t x ts xs Hx HF]; [cbn; rewrite andb_true_r; exact Hl|].
  cbn [is_nil pe_at]. apply has_andb; [|reflexivity]. intros -> Hc. cbn [can_t].
  rewrite (forall2_concat_nil (t :: ts) (x :: xs)); [rewrite andb_true_r; exact Hl|constructor; assumption|].
  destruct (concat (x :: xs)); [reflexivity|discriminate].
Qed.

(* and first only if what precedes it does *)
Lemma has_ps_at : forall ps first pre f t0 x0,
  has (ps_at ps first pre) f = true -> (first = true -> pre = true) -> Expands t0 x0 ->
  has (ps_at ps false (pre && fnull t0)) (f && is_nil x0) = true.
Proof.
  intros ps first pre f t0 x0 Hf Hinv Hx0. apply has_andb; [|reflexivity]. intros -> Hn. cbn [ps_at can_t].
  destruct x0; [|discriminate]. rewrite (expands_nil_fnull t0 Hx0), andb_true_r.
  unfold ps_at, has in Hf. destruct first; [|exact Hf]. rewrite Hf, Hinv; reflexivity.
Qed.

Lemma agrees_cat_aux : forall cap s ps e pe ts,
  Forall agrees ts ->
  forall first pre f l w,
    stable_cat (stable_gen true) s ps e pe ts first pre = true ->
    (first = true -> pre = true) ->
    has (ps_at ps first pre) f = true -> has pe l = true ->
    (sem (seq_edges_aux first (map (enc_tok cap) ts) s e) w <->
     exists xs, Forall2 Expands ts xs /\ FlatMatch f l (concat xs) w).
Proof.
  intros cap s ps e pe ts IH. induction IH as [|t0 ts' IH0 _ IHts]; intros first pre f l w Hs Hinv Hf Hl.
  - cbn [map seq_edges_aux Regex.sem]. split.
    + intros ->. exists []. split; constructor.
    + intros [xs [HF Hm]]. inversion HF; subst. cbn [concat] in Hm. apply flatmatch_nil in Hm. exact Hm.
  - rewrite stable_cat_cons in Hs. apply andb_prop in Hs. destruct Hs as [Hs0 Hs'].
    cbn [map]. rewrite sem_seq_edges_aux_cons, is_nil_map.
    split.
    + intros [u [v [-> [Hu Hv]]]].
      apply (IHts false (pre && fnull t0) false l v Hs') in Hv; [|discriminate|reflexivity|exact Hl].
      destruct Hv as [xs' [HF' Hm']].
      apply (IH0 cap _ _ _ _ f (l && is_nil (concat xs')) u Hs0 Hf (has_pe_at pe l ts' xs' Hl HF')) in Hu.
      destruct Hu as [x0 [Hx0 Hm0]].
      exists (x0 :: xs'). split; [constructor; assumption|]. cbn [concat]. apply flatmatch_app.
      exists u, v. split; [reflexivity|]. split; [exact Hm0|].
      (* what follows was matched as "not first": it is first only if it does not begin with a tree wildcard *)
      eapply convert_first; [|exact Hm'].
      intros Hn. pose proof (has_ps_at ps first pre f t0 x0 Hf Hinv Hx0) as Hp.
      destruct (f && is_nil x0); [|congruence]. apply andb_prop in Hp. destruct Hp as [Ht Hp].
      apply (cat_head_free true s ps e pe ts' xs' false (pre && fnull t0) (proj2 (Forall_forall _ _) (fun t _ => stable_both_head true t)) Hs' Ht Hp);
        [discriminate|exact HF'].
    + intros [xs [HF Hm]]. inversion HF as [|? x0 ? xs' Hx0 HF']; subst.
      cbn [concat] in Hm. apply flatmatch_app in Hm. destruct Hm as [u [v [-> [Hu Hv]]]].
      exists u, v. split; [reflexivity|]. split.
      * apply (IH0 cap _ _ _ _ f (l && is_nil (concat xs')) u Hs0 Hf (has_pe_at pe l ts' xs' Hl HF')).
        exists x0. split; assumption.
      * apply (IHts false (pre && fnull t0) (f && is_nil x0) l v Hs'); [discriminate| |exact Hl|exists xs'; split; assumption].
        exact (has_ps_at ps first pre f t0 x0 Hf Hinv Hx0).
Qed.

Lemma agrees_cat : forall sp ts, Forall agrees ts -> agrees (TCat sp ts).
Proof.
  intros sp ts IH cap s ps e pe f l w Hs Hf Hl. rewrite stable_gen_cat in Hs.
  cbn [enc_tok]. unfold seq_edges.
  rewrite (agrees_cat_aux cap s ps e pe ts IH true true f l w Hs (fun _ => eq_refl) Hf Hl). split.
  - intros [xs [HF Hm]]. exists (concat xs). split; [constructor; exact HF|exact Hm].
  - intros [x [Hx Hm]]. apply expands_cat in Hx. destruct Hx as [xs [HF ->]]. exists xs. split; assumption.
Qed.

Theorem encode_agrees : forall t, wf_tok t = true -> agrees t.
Proof.
  induction t as [sp l0|sp bs IH|sp ts IH|sp b lo hi IH] using tok_ind'; intros Hwf.
  - apply agrees_leaf. exact Hwf.
  - apply agrees_alt; [exact Hwf|]. apply wf_tok_alt in Hwf. destruct Hwf as [_ Hall].
    rewrite Forall_forall in *. intros b Hin. exact (IH b Hin (Hall b Hin)).
  - apply agrees_cat. apply wf_tok_cat in Hwf. rewrite Forall_forall in *. intros t Hin. exact (IH t Hin (Hwf t Hin)).
  - apply agrees_rep; [exact Hwf|]. apply IH. cbn [wf_tok] in Hwf. apply andb_prop in Hwf. apply Hwf.
Qed.

(* C01: the encoder agrees with the documented language; [trees_exact] makes "first" and "last" the only admissible flags *)
Theorem conformance : forall t w,
  wf_tok t = true -> trees_exact t = true -> (sem (encode t) w <-> Lang orbit t w).
Proof.
  intros t w Hwf He. unfold encode, Lang.
  apply (encode_agrees t Hwf true true (poss_of true) true (poss_of true) true true w He); reflexivity.
Qed.

End EncodeLang.
