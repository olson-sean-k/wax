(* ExhaustAltFacts.v -- C09, the coverage argument: an `Always` verdict is sound, however the alternations nest.
   (1) every expansion of the tree is covered by a member of the term the exhaustiveness fold computes, and a member without
   upper bound means the expansion ends with a tree wildcard followed by separators and zero-or-more wildcards only.  This is proved
   once: node by node (leaf, alternation, concatenation; the repetition is inverted here and covered in ExhaustRepFacts), for any
   invariant of the members under which a conjunction keeps upper bounds, and then by one induction over any class of trees that is
   closed under taking children (`class_covered`).  The globs without repetitions are the instance of this file; ExhaustRepFacts and
   ExhaustOptFacts give the instances with repetitions;
   (2) with the rule checker's guarantees over expansions (no adjacent boundaries, no adjacent zero-or-more wildcards: C06) and
   no trailing separator, that tail is `*`, `*/*`, ... (`ft_open_tail`); (3) such a tail absorbs any further component
   (`open_tail_l_extends`, by the shift lemmas of ExhaustFacts). *)
From WaxModel Require Import Base Token Spec Variance Fold.
From WaxProofs Require Import AlgebraClosure SpecFacts ExhaustFacts DepthTreeFacts DepthAltFacts AdjacencyFacts RuleAdjFacts RuleZomFacts.
Local Open Scope nat_scope.

Definition szt (l : leaf) : bool := match l with LSep | LZom _ | LTree _ => true | _ => false end.
Definition sz (l : leaf) : bool := match l with LSep | LZom _ => true | _ => false end.
Definition has_ft (x : list leaf) : Prop := exists pre r suf, x = pre ++ LTree r :: suf /\ forallb szt suf = true.
Definition open_tail_l (x : list leaf) : Prop := exists pre r suf, x = pre ++ LTree r :: suf /\ (suf = [] \/ ztail suf).

Lemma open_tail_l_extends : forall orbit x p z, open_tail_l x -> nosep z = true ->
  FlatMatch orbit true true x p -> FlatMatch orbit true true x (p ++ SEP :: z).
Proof.
  intros orbit x p z [pre [r [suf [-> Hs]]]] Hz Hm. destruct Hs as [->|Hzt].
  - apply flatmatch_extend_last_tree. exact Hm.
  - apply flatmatch_extend_tree_ztail; assumption.
Qed.

Lemma first_tree_leaf_split : forall l, existsb is_tree_leaf l = true ->
  exists a r b, l = a ++ LTree r :: b /\ existsb is_tree_leaf a = false.
Proof.
  induction l as [|t l IH]; intros H; [discriminate|]. cbn [existsb] in H. destruct (is_tree_leaf t) eqn:Et.
  - destruct t; try discriminate. exists [], root, l. split; reflexivity.
  - cbn [orb] in H. destruct (IH H) as [a [r [b [-> Ha]]]]. exists (t :: a), r, b. split; [reflexivity|]. cbn [existsb]. rewrite Et, Ha. reflexivity.
Qed.

Lemma has_ft_last : forall n suf pre r, length suf <= n -> forallb szt suf = true ->
  exists pre' r' suf', pre ++ LTree r :: suf = pre' ++ LTree r' :: suf' /\ forallb sz suf' = true.
Proof.
  induction n as [|n IH]; intros suf pre r Hn Hs.
  - destruct suf; [|cbn in Hn; lia]. exists pre, r, []. auto.
  - destruct (existsb is_tree_leaf suf) eqn:Et.
    + destruct (first_tree_leaf_split suf Et) as [a [r2 [b [-> Ha]]]]. rewrite forallb_app in Hs. apply andb_prop in Hs. destruct Hs as [_ Hs].
      cbn [forallb] in Hs. apply andb_prop in Hs. destruct Hs as [_ Hb].
      destruct (IH b (pre ++ LTree r :: a) r2) as [pre' [r' [suf' [E Hs']]]]; [rewrite app_length in Hn; cbn [length] in Hn; lia|exact Hb|].
      exists pre', r', suf'. split; [|exact Hs']. rewrite <- E, <- app_assoc. reflexivity.
    + exists pre, r, suf. split; [reflexivity|]. apply forallb_forall. intros l Hl. rewrite forallb_forall in Hs. specialize (Hs l Hl).
      destruct l; try discriminate; try reflexivity. exfalso. assert (existsb is_tree_leaf suf = true) by (apply existsb_exists; eexists; split; [exact Hl|reflexivity]). congruence.
Qed.

(* [chain_ok] is [gchain is_bnd], [zchain] is [gchain is_zl] *)
Lemma gchain_cons : forall q a x pq, gchain q pq (a :: x) = true -> gchain q (q a) x = true.
Proof. intros q a x pq H. exact (proj2 (andb_prop _ _ H)). Qed.

Lemma gchain_app_r : forall q x y pq, gchain q pq (x ++ y) = true -> exists pq', gchain q pq' y = true.
Proof.
  intros q [|a x] y pq H; [exists pq; exact H|]. rewrite gchain_app in H by discriminate.
  exists (glast q (a :: x)). exact (proj2 (andb_prop _ _ H)).
Qed.

Lemma zchain_weaken : forall x pz, zchain pz x = true -> zchain false x = true.
Proof. intros [|a x] pz H; [reflexivity|]. cbn [zchain andb negb] in *. apply andb_prop in H. exact (proj2 H). Qed.

Lemma sz_tail_shape : forall n suf, length suf <= n -> forallb sz suf = true ->
  chain_ok true suf = true -> zchain false suf = true -> last_opt suf <> Some LSep -> suf = [] \/ ztail suf.
Proof.
  induction n as [|n IH]; intros suf Hn Hs Hc Hz Hl.
  - destruct suf; [left; reflexivity|cbn in Hn; lia].
  - destruct suf as [|a r]; [left; reflexivity|]. right. cbn [forallb] in Hs. apply andb_prop in Hs. destruct Hs as [Ha Hr].
    destruct a; try discriminate.
    destruct r as [|b r2]; [constructor|]. cbn [forallb] in Hr. apply andb_prop in Hr. destruct Hr as [Hb Hr2].
    destruct b; try discriminate.
      * apply (gchain_cons is_bnd) in Hc. apply (gchain_cons is_bnd) in Hc. cbn [is_bnd] in Hc. apply (gchain_cons is_zl) in Hz. apply (gchain_cons is_zl) in Hz. cbn [is_zl] in Hz.
        assert (Hl2 : last_opt r2 <> Some LSep). { destruct r2 as [|c r3]; [discriminate|]. exact Hl. }
        destruct (IH r2 ltac:(cbn [length] in Hn; lia) Hr2 Hc Hz Hl2) as [->|Hzt].
        -- exfalso. apply Hl. reflexivity.
        -- constructor. exact Hzt.
Qed.

Lemma last_opt_suffix : forall {A} (pre : list A) a suf l, last_opt (pre ++ a :: suf) <> Some l -> suf <> [] -> last_opt suf <> Some l.
Proof. intros A pre a suf l H Hs. change (pre ++ a :: suf) with (pre ++ [a] ++ suf) in H. rewrite app_assoc, last_opt_app_r in H by exact Hs. exact H. Qed.

Lemma ft_open_tail : forall x, has_ft x -> chain_ok false x = true -> zchain false x = true -> last_opt x <> Some LSep -> open_tail_l x.
Proof.
  intros x [pre [r [suf [-> Hs]]]] Hc Hz Hl.
  destruct (has_ft_last (length suf) suf pre r (le_n _) Hs) as [pre' [r' [suf' [E Hs']]]]. rewrite E in *.
  exists pre', r', suf'. split; [reflexivity|].
  destruct (gchain_app_r is_bnd pre' (LTree r' :: suf') false Hc) as [pb Hc']. apply (gchain_cons is_bnd) in Hc'. cbn [is_bnd] in Hc'.
  destruct (gchain_app_r is_zl pre' (LTree r' :: suf') false Hz) as [pz Hz']. apply (gchain_cons is_zl) in Hz'. cbn [is_zl] in Hz'.
  apply (sz_tail_shape (length suf') suf' (le_n _) Hs' Hc' Hz').
  destruct suf' as [|c s]; [discriminate|]. apply (last_opt_suffix pre' (LTree r') (c :: s) LSep Hl). discriminate.
Qed.

Definition free_tok (t : tok) : bool := match t with TLeaf _ _ => exh_takes t | _ => all_unbounded t end.

Lemma exh_takes_szt : forall sp l, exh_takes (TLeaf sp l) = szt l.
Proof. intros sp []; reflexivity. Qed.

Lemma free_tok_unbounded : forall t, free_tok t = true -> all_unbounded t = true.
Proof. intros [] H; exact H. Qed.

Lemma unbounded_branch_free : forall t, is_branch t = true -> bounded_branch t = false -> free_tok t = true.
Proof. intros t Hb E. unfold bounded_branch in E. rewrite Hb in E. apply negb_false_iff in E. destruct t; [discriminate|exact E..]. Qed.

(* all but the last taken token are free *)
Fixpoint abl_free {A} (l : list (tok * A)) : Prop :=
  match l with
  | [] => True
  | [x] => True
  | x :: l' => free_tok (fst x) = true /\ abl_free l'
  end.

Lemma take_exh_shape : forall {A} (l : list (tok * A)), abl_free (take_exh true l) /\ exists rest, l = take_exh true l ++ rest.
Proof.
  induction l as [|[t a] l [IH1 [rest IH2]]]; [split; [exact I|exists []; reflexivity]|].
  assert (Hstop : abl_free [(t, a)] /\ exists rest, (t, a) :: l = [(t, a)] ++ rest) by (split; [exact I|eexists; reflexivity]).
  assert (Hgo : free_tok t = true -> abl_free ((t, a) :: take_exh true l) /\ exists rest, (t, a) :: l = ((t, a) :: take_exh true l) ++ rest).
  { intros Hf. split; [|exists rest; cbn [app]; rewrite <- IH2; reflexivity]. destruct (take_exh true l); [exact I|]. split; [exact Hf|exact IH1]. }
  cbn [take_exh]. destruct t as [sp lf|sp bs|sp ts|sp b lo hi].
  - destruct (exh_takes (TLeaf sp lf)) eqn:E; [exact (Hgo E)|]. split; [exact I|eexists; reflexivity].
  - cbn [andb]. destruct (bounded_branch (TAlt sp bs)) eqn:E; [exact Hstop|apply Hgo, unbounded_branch_free; [reflexivity|exact E]].
  - cbn [andb]. destruct (bounded_branch (TCat sp ts)) eqn:E; [exact Hstop|apply Hgo, unbounded_branch_free; [reflexivity|exact E]].
  - cbn [andb]. destruct (bounded_branch (TRep sp b lo hi)) eqn:E; [exact Hstop|apply Hgo, unbounded_branch_free; [reflexivity|exact E]].
Qed.

Fixpoint abl_free_t (l : list tok) : Prop :=
  match l with
  | [] => True
  | [x] => True
  | x :: l' => free_tok x = true /\ abl_free_t l'
  end.

Lemma abl_free_t_cons : forall r R, abl_free_t (r :: R) -> (R <> [] -> free_tok r = true) /\ abl_free_t R.
Proof. intros r [|r2 R] H; [split; [congruence|exact I]|]. destruct H as [H1 H2]. split; [intros _; exact H1|exact H2]. Qed.

Lemma abl_free_map : forall {A} (f : tok -> A) R, abl_free (map (fun t => (t, f t)) R) -> abl_free_t R.
Proof.
  induction R as [|r R IH]; intros H; [exact I|]. destruct R as [|r2 R']; [exact I|]. cbn [map abl_free abl_free_t fst] in *. destruct H as [H1 H2]. split; [exact H1|apply IH; exact H2].
Qed.

Lemma take_exh_suffix : forall {A} (f : tok -> A) l, exists R R2,
  l = R ++ R2 /\ take_exh true (map (fun t => (t, f t)) l) = map (fun t => (t, f t)) R /\ abl_free_t R.
Proof.
  intros A f l. destruct (take_exh_shape (map (fun t => (t, f t)) l)) as [Hab [rest Hsplit]].
  apply map_eq_app in Hsplit. destruct Hsplit as [R [R2 [E [ER _]]]]. rewrite <- ER in Hab. exists R, R2. split; [exact E|]. split; [symmetry; exact ER|exact (abl_free_map f R Hab)].
Qed.

Lemma take_exh_alt : forall {A} (f : tok -> A) R, Forall (fun b => is_branch b = true) R ->
  take_exh false (map (fun t => (t, f t)) R) = map (fun t => (t, f t)) R.
Proof.
  intros A f R H. induction H as [|t R Ht _ IH]; [reflexivity|]. cbn [map take_exh]. destruct t; try discriminate; cbn [andb]; rewrite IH; reflexivity.
Qed.

Lemma take_exh_single : forall {A} (b : tok) (a : A), is_branch b = true -> take_exh true [(b, a)] = [(b, a)].
Proof. intros A b a H. destruct b; try discriminate; cbn [take_exh andb]; destruct (bounded_branch _); reflexivity. Qed.

Lemma has_ft_prepend : forall y x, has_ft x -> has_ft (y ++ x).
Proof. intros y x [pre [r [suf [-> H]]]]. exists (y ++ pre), r, suf. split; [rewrite app_assoc; reflexivity|exact H]. Qed.

Lemma has_ft_append : forall x y, has_ft x -> forallb szt y = true -> has_ft (x ++ y).
Proof.
  intros x y [pre [r [suf [-> H]]]] Hy. exists pre, r, (suf ++ y). split; [rewrite <- app_assoc; reflexivity|]. rewrite forallb_app, H, Hy. reflexivity.
Qed.

Lemma disj_of_rmapM_inv : forall {A} (f : A -> res sterm) l c, (do cs <- rmapM f l; Ok (BDisj (set_of_list cs))) = Ok c ->
  forall m, In m (members c) -> exists a, In a l /\ f a = Ok m.
Proof.
  intros A f l c H m Hm. destruct (rmapM f l) as [cs|] eqn:E; [|discriminate]. inversion H; subst. cbn [members] in Hm.
  apply (proj1 (set_of_list_in _ _)) in Hm. exact (rmapM_all_ok _ _ _ E m Hm).
Qed.

Lemma bterm_conj_members_inv : forall l r c, bterm_conj l r = Ok c -> forall m, In m (members c) ->
  exists a b, In a (members l) /\ In b (members r) /\ sterm_conj a b = Ok m.
Proof.
  intros [a|ss] [b|bs] c H m Hm; cbn [bterm_conj members] in *.
  - destruct (sterm_conj a b) as [x|] eqn:E; [|discriminate]. inversion H; subst. destruct Hm as [<-|[]]. exists a, b. cbn [In]. auto.
  - destruct (disj_of_rmapM_inv _ _ _ H m Hm) as [b0 [Hb0 Hc]]. exists a, b0. cbn [In]. auto.
  - destruct (disj_of_rmapM_inv _ _ _ H m Hm) as [a0 [Ha0 Hc]]. exists a0, b. cbn [In]. auto.
  - destruct (disj_of_rmapM_inv _ _ _ H m Hm) as [[a0 b0] [Hab Hc]]. apply in_prod_iff in Hab. exists a0, b0. tauto.
Qed.

Lemma rfold_disj_members_iff : forall b1 bs c, rfold rdisj b1 bs = Ok c ->
  forall y, In y (members c) <-> exists b, In b (b1 :: bs) /\ In y (members b).
Proof.
  intros b1 bs c H y. rewrite (rfold_disj_members _ _ _ H). split.
  - intros [H1|[b [Hb Hy]]]; [exists b1; split; [left; reflexivity|exact H1]|exists b; split; [right; exact Hb|exact Hy]].
  - intros [b [[<-|Hb] Hy]]; [left; exact Hy|right; exists b; auto].
Qed.

(* [covers b X]: every expansion in X has a member of b that, if it has no upper bound, points at a tree wildcard with a free tail *)
Definition covers (b : bterm) (X : list leaf -> Prop) : Prop :=
  forall x, X x -> exists m, In m (members b) /\ (vform (snd m) -> has_ft x).

(* the members' invariant under which a conjunction never loses an upper bound: the shapes of DepthTreeFacts when there is no repetition,
   the well-formed variances in general *)
Definition keeps_upper (P : sterm -> Prop) : Prop :=
  (forall l, P (sterm_of l)) /\ P (TOpen, Inv 0%N) /\
  forall a b c, P a -> P b -> sterm_conj a b = Ok c -> P c /\ (vform (snd c) -> vform (snd a) \/ vform (snd b)).

(* A conjunction of terms is a conjunction of their variances, one of them finalised first, and finalising is a conjunction with 1,
   or taking one from an exact count, or nothing.  So an invariant of variances that holds of exact counts and under which
   [nvar_conj] keeps upper bounds is such an invariant of members. *)
Section Variances.
Variable Pv : nvar -> Prop.
Hypothesis Pv_inv : forall n, Pv (Inv n).
Hypothesis Pv_unbounded : Pv (Var Unbounded).
Hypothesis Pv_conj : forall a b c, Pv a -> Pv b -> nvar_conj a b = Ok c -> Pv c /\ (vform c -> vform a \/ vform b).

Lemma finalize_upper : forall s v, Pv (snd s) -> sterm_finalize s = Ok v -> Pv v /\ (vform v -> vform (snd s)).
Proof.
  intros [T w] v Hs H. unfold sterm_finalize in H. cbn [fst snd] in *. destruct T.
  - destruct (Pv_conj w (Inv 1%N) v Hs (Pv_inv _) H) as [H1 H2]. split; [exact H1|]. intros Hv. destruct (H2 Hv) as [Hw|[]]. exact Hw.
  - inversion H; subst. auto.
  - inversion H; subst. auto.
  - destruct w; inversion H; subst; [split; [apply Pv_inv|intros []]|auto].
  - inversion H; subst. auto.
Qed.

Lemma sterm_conj_upper : forall a b c, Pv (snd a) -> Pv (snd b) -> sterm_conj a b = Ok c ->
  Pv (snd c) /\ (vform (snd c) -> vform (snd a) \/ vform (snd b)).
Proof.
  intros a b c Ha Hb H. unfold sterm_conj in H. destruct (term_conj (fst a) (fst b)) as [t|t|t].
  - destruct (sterm_finalize a) as [lv|] eqn:Ef; [|discriminate]. cbn [rbind] in H. destruct (nvar_conj lv (snd b)) as [v|] eqn:Ec; [|discriminate]. inversion H; subst. cbn [snd].
    destruct (finalize_upper a lv Ha Ef) as [F1 F2]. destruct (Pv_conj _ _ _ F1 Hb Ec) as [C1 C2]. split; [exact C1|]. intros Hv. destruct (C2 Hv) as [H1|H1]; [left; exact (F2 H1)|right; exact H1].
  - destruct (sterm_finalize b) as [rv|] eqn:Ef; [|discriminate]. cbn [rbind] in H. destruct (nvar_conj (snd a) rv) as [v|] eqn:Ec; [|discriminate]. inversion H; subst. cbn [snd].
    destruct (finalize_upper b rv Hb Ef) as [F1 F2]. destruct (Pv_conj _ _ _ Ha F1 Ec) as [C1 C2]. split; [exact C1|]. intros Hv. destruct (C2 Hv) as [H1|H1]; [left; exact H1|right; exact (F2 H1)].
  - destruct (nvar_conj (snd a) (snd b)) as [v|] eqn:Ec; [|discriminate]. inversion H; subst. exact (Pv_conj _ _ _ Ha Hb Ec).
Qed.

Lemma variances_keep_upper : keeps_upper (fun m => Pv (snd m)).
Proof. split; [intros []; cbn; auto|]. split; [apply Pv_inv|exact sterm_conj_upper]. Qed.
End Variances.

Section Coverage.
Variable P : sterm -> Prop.
Hypothesis HP : keeps_upper P.

Definition covered (t : tok) : Prop :=
  forall r, exh_fold t = Ok r -> exists b, r = Some b /\ Forall P (members b) /\ covers b (Expands t).

Lemma covered_term : forall t b, covered t -> exh_fold t = Ok (Some b) -> Forall P (members b) /\ covers b (Expands t).
Proof. intros t b H Hb. destruct (H _ Hb) as [b' [E Hb']]. inversion E; subst. exact Hb'. Qed.

Lemma covered_iff : forall t, covered t <->
  (forall r, exh_fold t = Ok r -> r <> None) /\ forall b, exh_fold t = Ok (Some b) -> Forall P (members b) /\ covers b (Expands t).
Proof.
  intros t. split.
  - intros H. split; [intros r Hr; destruct (H r Hr) as [b [-> _]]; discriminate|intros b Hb; exact (covered_term t b H Hb)].
  - intros [H1 H2] [b|] Hr; [|destruct (H1 None Hr eq_refl)]. exists b. split; [reflexivity|exact (H2 b Hr)].
Qed.

Lemma covered_leaf : forall sp l, covered (TLeaf sp l).
Proof.
  intros sp l r Hr. cbn [exh_fold] in Hr. inversion Hr; subst. rewrite depth_leaf_sterm. eexists. split; [reflexivity|]. split; [constructor; [apply HP|constructor]|].
  intros x Hx. inversion Hx; subst. exists (sterm_of l). split; [left; reflexivity|]. intros Hv. destruct l; try destruct Hv. exists [], root, []. split; reflexivity.
Qed.

Lemma children_terms : forall R terms0, Forall covered R -> rmapM snd (map (fun t => (t, exh_fold t)) R) = Ok terms0 ->
  Forall2 (fun t b => exh_fold t = Ok (Some b)) R (flat_map opt_list terms0).
Proof.
  induction R as [|t R IH]; intros terms0 HC H; [cbn in H; inversion H; constructor|]. inversion HC as [|? ? Ht HR]; subst.
  cbn [map rmapM rbind snd] in H. destruct (exh_fold t) as [r|] eqn:E; [|discriminate]. cbn [rbind] in H.
  destruct (rmapM snd (map (fun t => (t, exh_fold t)) R)) as [rs|] eqn:Er; [|discriminate]. cbn [rbind] in H. inversion H; subst.
  destruct (Ht r E) as [b [-> _]]. cbn [flat_map opt_list app]. constructor; [exact E|exact (IH rs HR eq_refl)].
Qed.

Lemma exh_node_inv : forall conj op ts R r,
  take_exh conj (map (fun t => (t, exh_fold t)) (rev ts)) = map (fun t => (t, exh_fold t)) R -> Forall covered R ->
  exh_node conj op ts = Ok r ->
  exists tbs sum, Forall2 (fun t b => exh_fold t = Ok (Some b)) R tbs /\ rreduce op tbs = Ok sum /\
                  exh_finish (length ts) (length tbs) sum = Ok r.
Proof.
  intros conj op ts R r Etake HR Hr. unfold exh_node in Hr. rewrite combine_map, <- map_rev, Etake in Hr.
  destruct (rmapM snd _) as [terms0|] eqn:Em; [|discriminate]. cbn [rbind] in Hr.
  destruct (rreduce op _) as [sum|] eqn:Es; [|discriminate]. cbn [rbind] in Hr.
  exists (flat_map opt_list terms0), sum. split; [exact (children_terms R terms0 HR Em)|]. split; [exact Es|exact Hr].
Qed.

Lemma zero_covers : forall X, Forall P (members bterm_zero) /\ covers bterm_zero X.
Proof. intros X. split; [constructor; [apply HP|constructor]|intros x _; exists (TOpen, Inv 0%N); split; [left; reflexivity|intros []]]. Qed.

Lemma covered_finish : forall n k c r X, exh_finish n k (Some c) = Ok r -> Forall P (members c) -> covers c X ->
  exists b, r = Some b /\ Forall P (members b) /\ covers b X.
Proof.
  intros n k c r X Hr Hc Hcov. pose proof (zero_covers X) as Hzero.
  unfold exh_finish in Hr. destruct (Nat.eqb n k); [|destruct (exh_maybe (Some c))]; inversion Hr; subst; eexists; (split; [reflexivity|]); auto.
Qed.

Lemma covered_alt : forall sp bs, negb (is_nil bs) = true -> Forall (fun b => is_branch b = true /\ covered b) bs -> covered (TAlt sp bs).
Proof.
  intros sp bs Hnil Hall r Hr. apply Forall_rev in Hall. rewrite Forall_forall in Hall. rewrite exh_fold_alt in Hr.
  destruct (exh_node_inv false rdisj bs (rev bs) r) as [tbs [sum [Htbs [Ef Hfin]]]]; [| |exact Hr|].
  { apply take_exh_alt, Forall_forall. intros b Hb. exact (proj1 (Hall b Hb)). }
  { apply Forall_forall. intros b Hb. exact (proj2 (Hall b Hb)). }
  destruct tbs as [|b1 tbs].
  { inversion Htbs as [E|]. destruct bs as [|b0 bs']; [discriminate|]. cbn [rev] in E. destruct (rev bs'); discriminate. }
  destruct (rreduce_cons_ok _ _ _ _ Ef) as [c [Ec ->]]. pose proof (rfold_disj_members_iff _ _ _ Ec) as Hmem.
  apply (covered_finish _ _ _ _ _ Hfin).
  - apply Forall_forall. intros m Hm. apply Hmem in Hm. destruct Hm as [tb [Htb Hm]].
    destruct (forall2_in_r _ _ _ _ Htbs Htb) as [b [Hb Eb]]. destruct (covered_term b tb (proj2 (Hall b Hb)) Eb) as [HPb _].
    rewrite Forall_forall in HPb. exact (HPb m Hm).
  - intros x Hx. inversion Hx as [|sp0 bs0 b x0 Hin Hxb| |]; subst. apply in_rev in Hin.
    destruct (forall2_in_l _ _ _ _ Htbs Hin) as [tb [Htb Eb]]. destruct (covered_term b tb (proj2 (Hall b Hin)) Eb) as [_ Hcov].
    destruct (Hcov x Hxb) as [m [Hm Hft]]. exists m. split; [apply Hmem; exists tb; auto|exact Hft].
Qed.

Lemma bterm_conj_keeps : forall l r c, bterm_conj l r = Ok c -> Forall P (members l) -> Forall P (members r) -> Forall P (members c).
Proof.
  intros l r c H Hl Hr. rewrite Forall_forall in *. intros m Hm. destruct (bterm_conj_members_inv _ _ _ H m Hm) as [a [b [Ha [Hb Hc]]]].
  exact (proj1 (proj2 (proj2 HP) _ _ _ (Hl a Ha) (Hr b Hb) Hc)).
Qed.

Lemma rfold_conj_keeps : forall bs acc c, rfold bterm_conj acc bs = Ok c -> Forall P (members acc) -> Forall (fun b => Forall P (members b)) bs ->
  Forall P (members c).
Proof.
  induction bs as [|b bs IH]; intros acc c H Ha Hbs; [cbn in H; inversion H; subst; exact Ha|]. inversion Hbs; subst.
  cbn [rfold] in H. destruct (bterm_conj acc b) as [acc'|] eqn:Ec; [|discriminate]. cbn [rbind] in H.
  apply (IH acc' c H); [eapply bterm_conj_keeps; eassumption|assumption].
Qed.

(* the conjunction over the taken suffix R of a concatenation, in reverse: [sa] is the member of the term so far that covers Y, what the
   tokens already conjoined expand to; as long as tokens remain, Y holds separators and wildcards only *)
Lemma fold_covers : forall R ys bs, Forall2 Expands R ys -> Forall2 (fun t b => exh_fold t = Ok (Some b)) R bs ->
  Forall (fun t => covered t /\ (free_tok t = true -> forall x, Expands t x -> forallb szt x = true)) R -> abl_free_t R ->
  forall acc Y sa c, Forall P (members acc) -> In sa (members acc) -> (vform (snd sa) -> has_ft Y) -> (R <> [] -> forallb szt Y = true) ->
  rfold bterm_conj acc bs = Ok c ->
  exists sc, In sc (members c) /\ (vform (snd sc) -> has_ft (concat (rev ys) ++ Y)).
Proof.
  intros R ys bs HX. revert bs. induction HX as [|r y R' ys' Hy HX' IH]; intros bs HB HS Hab acc Y sa c Hacc Hsa Hft Hszt H.
  - inversion HB; subst. cbn in H. inversion H; subst. exists sa. split; [exact Hsa|exact Hft].
  - inversion HB as [|? br ? bs' Hbr HB']; subst. inversion HS as [|? ? [HSr Hfree] HS']; subst.
    cbn [rfold] in H. destruct (bterm_conj acc br) as [acc'|] eqn:Ec; [|discriminate]. cbn [rbind] in H.
    destruct (covered_term r br HSr Hbr) as [HPr Hcov]. destruct (Hcov y Hy) as [m [Hm Hmft]].
    destruct (bterm_conj_members _ _ _ sa m Ec Hsa Hm) as [sa' [Hsa' Hin']].
    rewrite Forall_forall in Hacc, HPr. destruct (proj2 (proj2 HP) _ _ _ (Hacc sa Hsa) (HPr m Hm) Hsa') as [_ Hconv].
    assert (HsY : forallb szt Y = true) by (apply Hszt; discriminate).
    destruct (abl_free_t_cons r R' Hab) as [Hfr Hab'].
    apply (IH bs' HB' HS' Hab' acc' (y ++ Y) sa' c) in H; [| |exact Hin'| |].
    + destruct H as [sc [C2 C3]]. exists sc. split; [exact C2|]. cbn [rev]. rewrite concat_app. cbn [concat]. rewrite app_nil_r, <- app_assoc. exact C3.
    + eapply bterm_conj_keeps; [exact Ec| |]; apply Forall_forall; assumption.
    + intros Hv. destruct (Hconv Hv) as [H1|H1]; [apply has_ft_prepend; exact (Hft H1)|apply has_ft_append; [exact (Hmft H1)|exact HsY]].
    + intros Hne. rewrite forallb_app, HsY, (Hfree (Hfr Hne) y Hy). reflexivity.
Qed.

Lemma covered_cat : forall sp ts, negb (is_nil ts) = true ->
  Forall (fun m => covered m /\ (free_tok m = true -> forall x, Expands m x -> forallb szt x = true)) ts -> covered (TCat sp ts).
Proof.
  intros sp ts Hnil HSm r Hr. rewrite exh_fold_cat in Hr.
  destruct (take_exh_suffix exh_fold (rev ts)) as [R [R2 [Erev [Etake Hab]]]].
  apply Forall_rev in HSm. rewrite Erev in HSm. apply Forall_app in HSm. destruct HSm as [HSR _].
  destruct (exh_node_inv true bterm_conj ts R r Etake) as [tbs [sum [Htbs [Ef Hfin]]]]; [|exact Hr|].
  { eapply Forall_impl; [|exact HSR]. intros m Hm. exact (proj1 Hm). }
  destruct Htbs as [|r1 b1 R' tbs Hb1 Htbs].
  - inversion Ef; subst sum. destruct ts; [discriminate|]. inversion Hfin. exists bterm_zero.
    split; [reflexivity|apply zero_covers].
  - destruct (rreduce_cons_ok _ _ _ _ Ef) as [c [Ec ->]].
    inversion HSR as [|? ? [HS1 Hfree1] HSR']; subst. destruct (covered_term r1 b1 HS1 Hb1) as [HP1 Hcov1].
    apply (covered_finish _ _ _ _ _ Hfin).
    + apply (rfold_conj_keeps tbs b1 c Ec HP1). apply Forall_forall. intros tb Htb.
      destruct (forall2_in_r _ _ _ _ Htbs Htb) as [t [Ht Et]]. rewrite Forall_forall in HSR'. exact (proj1 (covered_term t tb (proj1 (HSR' t Ht)) Et)).
    + intros x Hx. inversion Hx as [| |sp0 ts0 xs HFx|]; subst.
      apply forall2_rev in HFx. rewrite Erev in HFx. apply Forall2_app_inv_l in HFx. destruct HFx as [ys [ys2 [HFy [_ Exs]]]].
      inversion HFy as [|? y1 ? ys' Hy1 HFy']; subst. destruct (Hcov1 y1 Hy1) as [m1 [Hm1 Hft1]].
      destruct (abl_free_t_cons r1 R' Hab) as [Hfr Hab'].
      destruct (fold_covers R' ys' tbs HFy' Htbs HSR' Hab' b1 y1 m1 c HP1 Hm1 Hft1 (fun Hne => Hfree1 (Hfr Hne) y1 Hy1) Ec) as [sc [Hsc Hftc]].
      exists sc. split; [exact Hsc|]. intros Hv.
      rewrite <- (rev_involutive xs), Exs, rev_app_distr, concat_app. apply has_ft_prepend.
      cbn [rev]. rewrite concat_app. cbn [concat]. rewrite app_nil_r. exact (Hftc Hv).
Qed.

Lemma exh_fold_rep_inv : forall sp b lo hi r, is_branch b = true -> covered b -> exh_fold (TRep sp b lo hi) = Ok r ->
  exists xb, exh_fold b = Ok (Some xb) /\
    (r = Some xb \/ bounded_branch b = false /\ exists y, bterm_product xb (rep_range lo hi) = Ok y /\ r = Some y).
Proof.
  intros sp b lo hi r Hbr Hb Hr. rewrite exh_fold_rep in Hr. apply rbind_ok in Hr. destruct Hr as [folded [Hn Hr]].
  destruct (exh_node_inv true bterm_conj [b] [b] folded (take_exh_single b _ Hbr) (Forall_cons _ Hb (Forall_nil _)) Hn) as [tbs [sum [Htbs [Es Hfin]]]].
  inversion Htbs as [|? xb ? ? Eb Hnil]; subst. inversion Hnil; subst. inversion Es; subst sum. inversion Hfin; subst folded.
  exists xb. split; [exact Eb|].
  destruct (bounded_branch b); [left; inversion Hr; reflexivity|]. destruct (exh_rep_finalizes xb); [|left; inversion Hr; reflexivity].
  destruct (bterm_product xb (rep_range lo hi)) as [y|]; [|discriminate]. inversion Hr; subst.
  right. split; [reflexivity|]. exists y. split; reflexivity.
Qed.

Variable C : tok -> Prop.
Hypothesis C_alt : forall sp bs, C (TAlt sp bs) -> forall b, In b bs -> C b.
Hypothesis C_branch : forall sp bs, C (TAlt sp bs) -> forall b, In b bs -> is_branch b = true.
Hypothesis C_cat : forall sp ts, C (TCat sp ts) -> forall m, In m ts -> C m.
Hypothesis C_rep : forall sp b lo hi, C (TRep sp b lo hi) -> C b /\ free_rep b lo hi = false.
Hypothesis C_rep_covered : forall sp b lo hi, C (TRep sp b lo hi) -> covered b -> covered (TRep sp b lo hi).

Lemma class_free_expands : forall t, C t -> all_unbounded t = true -> forall x, Expands t x -> forallb szt x = true.
Proof.
  induction t as [sp l|sp bs IH|sp ts IH|sp b lo hi IH] using tok_ind'; intros Hc Hu x Hx; cbn [all_unbounded] in Hu.
  - inversion Hx; subst. rewrite exh_takes_szt in Hu. cbn [forallb]. rewrite Hu. reflexivity.
  - inversion Hx as [|sp0 bs0 bb x0 Hin Hxb| |]; subst. rewrite forallb_forall in Hu. rewrite Forall_forall in IH.
    exact (IH bb Hin (C_alt _ _ Hc bb Hin) (Hu bb Hin) x Hxb).
  - inversion Hx as [| |sp0 ts0 xs HF|]; subst. rewrite forallb_forall in Hu. rewrite Forall_forall in IH.
    apply forallb_concat. apply Forall_forall. intros x0 Hx0. destruct (forall2_in_r _ _ _ _ HF Hx0) as [t0 [Ht0 Hex]].
    exact (IH t0 Ht0 (C_cat _ _ Hc t0 Ht0) (Hu t0 Ht0) x0 Hex).
  - inversion Hx as [| | |sp0 b0 lo0 hi0 xs Hb HF]; subst. destruct (C_rep _ _ _ _ Hc) as [Hcb Hfr]. rewrite Hfr in Hu. cbn [orb] in Hu.
    apply forallb_concat. eapply Forall_impl; [|exact HF]. intros y Hy. exact (IH Hcb Hu y Hy).
Qed.

Theorem class_covered : forall t, C t -> nonempty_branches t = true -> covered t.
Proof.
  induction t as [sp l|sp bs IH|sp ts IH|sp b lo hi IH] using tok_ind'; intros Hc Hn; cbn [nonempty_branches] in Hn.
  - apply covered_leaf.
  - apply andb_prop in Hn. destruct Hn as [Hnil Hn]. rewrite forallb_forall in Hn. rewrite Forall_forall in IH.
    apply covered_alt; [exact Hnil|]. apply Forall_forall. intros b Hb.
    split; [exact (C_branch _ _ Hc b Hb)|exact (IH b Hb (C_alt _ _ Hc b Hb) (Hn b Hb))].
  - apply andb_prop in Hn. destruct Hn as [Hnil Hn]. rewrite forallb_forall in Hn. rewrite Forall_forall in IH.
    apply covered_cat; [exact Hnil|]. apply Forall_forall. intros m Hm. pose proof (C_cat _ _ Hc m Hm) as Hcm.
    split; [exact (IH m Hm Hcm (Hn m Hm))|]. intros Hf. exact (class_free_expands m Hcm (free_tok_unbounded m Hf)).
  - apply andb_prop in Hn. destruct Hn as [Hnb _]. exact (C_rep_covered _ _ _ _ Hc (IH (proj1 (C_rep _ _ _ _ Hc)) Hnb)).
Qed.
End Coverage.

(* trees without repetitions: the variances of the members keep the shapes of DepthTreeFacts (no range bounded above) *)
Definition shape_members (b : bterm) : Prop := Forall (fun m => shape (snd m)) (members b).

Definition Covered (t : tok) : Prop :=
  (forall r, exh_fold t = Ok r -> r <> None) /\
  forall b, exh_fold t = Ok (Some b) ->
    shape_members b /\ forall x, Expands t x -> exists m, In m (members b) /\ (vform (snd m) -> has_ft x).

Lemma Covered_covered : forall t, Covered t <-> covered (fun m => shape (snd m)) t.
Proof. intros t. symmetry. exact (covered_iff _ t). Qed.

Lemma conj_shape : forall x y z, shape x -> shape y -> nvar_conj x y = Ok z -> shape z /\ (vform z -> vform x \/ vform y).
Proof.
  intros x y z Sx Sy E. destruct (conj_any _ _ _ Sx Sy E) as [C1 [_ [_ C4]]]. split; [exact C1|]. intros Hz.
  destruct x as [i|vx]; [|left; destruct vx as [[]|]; try destruct Sx; exact I]. destruct y as [j|vy]; [|right; destruct vy as [[]|]; try destruct Sy; exact I].
  rewrite (C4 i j eq_refl eq_refl) in Hz. destruct Hz.
Qed.

Lemma sterm_conj_shape : forall a b c, shape (snd a) -> shape (snd b) -> sterm_conj a b = Ok c ->
  shape (snd c) /\ (vform (snd c) -> vform (snd a) \/ vform (snd b)).
Proof. exact (sterm_conj_upper shape (fun _ => I) conj_shape). Qed.

Lemma shape_keeps_upper : keeps_upper (fun m => shape (snd m)).
Proof. exact (variances_keep_upper shape (fun _ => I) I conj_shape). Qed.

Lemma free_tok_expands : forall t, rep_free t = true -> free_tok t = true -> forall x, Expands t x -> forallb szt x = true.
Proof.
  intros t Hr Hf. apply (class_free_expands (fun t => rep_free t = true)); [| |discriminate|exact Hr|exact (free_tok_unbounded t Hf)].
  - intros sp bs H b. exact (rep_free_child (TAlt sp bs) b H).
  - intros sp ts H m. exact (rep_free_child (TCat sp ts) m H).
Qed.

Lemma fold_covered : forall R ys bs, Forall2 Expands R ys -> Forall2 (fun t b => exh_fold t = Ok (Some b)) R bs ->
  Forall (fun t => Covered t /\ rep_free t = true) R -> abl_free_t R ->
  forall acc Y sa c, shape_members acc -> In sa (members acc) -> (vform (snd sa) -> has_ft Y) -> (R <> [] -> forallb szt Y = true) ->
  rfold bterm_conj acc bs = Ok c ->
  shape_members c /\ exists sc, In sc (members c) /\ (vform (snd sc) -> has_ft (concat (rev ys) ++ Y)).
Proof.
  intros R ys bs HX HB HS Hab acc Y sa c Hsh Hsa Hft Hszt H.
  assert (HS' : Forall (fun t => covered (fun m => shape (snd m)) t /\ (free_tok t = true -> forall x, Expands t x -> forallb szt x = true)) R).
  { eapply Forall_impl; [|exact HS]. intros t [Ht Hr]. split; [apply Covered_covered; exact Ht|exact (free_tok_expands t Hr)]. }
  split; [|exact (fold_covers _ shape_keeps_upper R ys bs HX HB HS' Hab acc Y sa c Hsh Hsa Hft Hszt H)].
  apply (rfold_conj_keeps _ shape_keeps_upper bs acc c H Hsh). apply Forall_forall. intros b Hb.
  destruct (forall2_in_r _ _ _ _ HB Hb) as [t [Ht Et]]. rewrite Forall_forall in HS'. exact (proj1 (covered_term _ t b (proj1 (HS' t Ht)) Et)).
Qed.

Theorem shp_covered : forall t, shp t = true -> nonempty_branches t = true -> covered (fun m => shape (snd m)) t.
Proof.
  intros t Hs Hn. apply (class_covered _ shape_keeps_upper (fun t => shp t = true)); try assumption; try discriminate.
  - intros sp bs H b. exact (shp_child (TAlt sp bs) b H).
  - intros sp bs H b Hb. cbn [shp] in H. rewrite forallb_forall in H. destruct b; try reflexivity. discriminate (H _ Hb).
  - intros sp ts H m. exact (shp_child (TCat sp ts) m H).
Qed.

Theorem rep_free_S : forall t, shp t = true -> nonempty_branches t = true -> Covered t.
Proof. intros t Hs Hn. apply Covered_covered. exact (shp_covered t Hs Hn). Qed.

Lemma always_members : forall b, bterm_is_exhaustive b = Always -> forall m, In m (members b) -> nvar_is_exhaustive (snd m) = true.
Proof.
  intros [a|ss] H m Hm; cbn [bterm_is_exhaustive members] in *.
  - destruct Hm as [<-|[]]. destruct (nvar_is_exhaustive (snd a)); [reflexivity|discriminate].
  - destruct ss as [|a ss']; [contradiction|]. cbn [map reduce_pure] in H. destruct (certainty_fold _ _ Always H ltac:(discriminate)) as [Ha Hall].
    destruct Hm as [<-|Hm].
    + destruct (nvar_is_exhaustive (snd a)); [reflexivity|discriminate].
    + rewrite Forall_forall in Hall. assert (Hin : In (when_of_bool (nvar_is_exhaustive (snd m))) (map (fun a0 => when_of_bool (nvar_is_exhaustive (snd a0))) ss')) by (apply in_map_iff; exists m; auto).
      specialize (Hall _ Hin). destruct (nvar_is_exhaustive (snd m)); [reflexivity|discriminate].
Qed.

Lemma exhaustive_vform_any : forall v, nvar_is_exhaustive v = true -> vform v.
Proof. intros [n|[[k|k|l e]|]] H; try discriminate; exact I. Qed.

Theorem covered_open_tail : forall P t x, covered P t -> is_exhaustive t = Ok Always ->
  Expands t x -> chain_ok false x = true -> zchain false x = true -> last_opt x <> Some LSep -> open_tail_l x.
Proof.
  intros P t x HS He Hx Hc Hzc Hl.
  unfold is_exhaustive in He. destruct (exh_fold t) as [r|] eqn:Ef; [|discriminate]. cbn [rbind] in He.
  destruct (HS r Ef) as [b [-> [_ Hcov]]]. inversion He as [Hal]. destruct (Hcov x Hx) as [m [Hmem Hft]].
  apply ft_open_tail; [|assumption..]. exact (Hft (exhaustive_vform_any _ (always_members b Hal m Hmem))).
Qed.

Theorem covered_always_sound : forall P orbit t p z x, covered P t -> is_exhaustive t = Ok Always -> nosep z = true ->
  Expands t x -> chain_ok false x = true -> zchain false x = true -> last_opt x <> Some LSep ->
  FlatMatch orbit true true x p -> FlatMatch orbit true true x (p ++ SEP :: z).
Proof.
  intros P orbit t p z x HS He Hz Hx Hc Hzc Hl Hm. apply open_tail_l_extends; [|exact Hz|exact Hm]. exact (covered_open_tail P t x HS He Hx Hc Hzc Hl).
Qed.
