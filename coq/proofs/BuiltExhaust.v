(* BuiltExhaust.v -- C09 for flat patterns (concatenations of leaves): the instance of the coverage theorem on the token list itself, and for
   the flat globs that build, where the rule-checker and parser side conditions are discharged.  Last, the same for the globs that build
   and have no repetition (`built_rep_free_always_sound`). *)
From WaxModel Require Import Base Token Spec Variance Fold Rule Glob.
From WaxProofs Require Import RuleZomRep SpecFacts FuelFacts DepthFacts ZomFacts ExhaustFacts DepthTreeFacts RuleZomFacts.
From WaxProofs Require Import ParseRel ParseShape BuiltNonempty DepthAltFacts AdjacencyFacts RuleAdjFacts AlgebraClosure ExhaustAltFacts ExhaustRepFacts ExhaustOptFacts.

Lemma leaves_frp : forall sp ts, forallb is_leaf ts = true -> frp (TCat sp ts) = true.
Proof. intros sp ts H. cbn [frp]. rewrite forallb_forall in *. intros t Ht. specialize (H t Ht). destruct t; try discriminate; reflexivity. Qed.

Lemma leaves_nonempty : forall sp ts, forallb is_leaf ts = true -> ts <> [] -> nonempty_branches (TCat sp ts) = true.
Proof.
  intros sp ts H Hne. cbn [nonempty_branches]. destruct ts as [|t0 ts']; [congruence|]. cbn [is_nil negb andb].
  rewrite forallb_forall in *. intros t Ht. specialize (H t Ht). destruct t; try discriminate; reflexivity.
Qed.

Lemma always_nonempty : forall sp ts, is_exhaustive (TCat sp ts) = Ok Always -> ts <> [].
Proof. intros sp ts H ->. cbn in H. discriminate. Qed.

Lemma leaves_expand : forall sp ts, forallb is_leaf ts = true -> Expands (TCat sp ts) (map leaf_of ts).
Proof.
  intros sp ts H. assert (HF : Forall2 Expands ts (map (fun t => [leaf_of t]) ts)).
  { induction ts as [|t ts IH]; [constructor|]. cbn [forallb] in H. apply andb_prop in H. destruct H as [Ht Hts].
    destruct t; try discriminate. constructor; [constructor|exact (IH Hts)]. }
  rewrite <- (expands_leaves _ _ H HF). constructor. exact HF.
Qed.

Lemma adj_zom_tail : forall t l, adj_zom (t :: l) = false -> adj_zom l = false.
Proof. intros t [|t2 l] H; [reflexivity|]. cbn [adj_zom] in H. apply orb_false_iff in H. exact (proj2 H). Qed.

Lemma zchain_of_tokens : forall ts pz, forallb is_leaf ts = true -> adj_zom ts = false ->
  (pz = true -> match ts with t :: _ => is_zom t = false | [] => True end) -> zchain pz (map leaf_of ts) = true.
Proof.
  induction ts as [|t ts IH]; intros pz Hl Ha Hp; [reflexivity|].
  cbn [forallb] in Hl. apply andb_prop in Hl. destruct Hl as [Ht Hl]. cbn [map zchain].
  assert (Ez : is_zl (leaf_of t) = is_zom t) by (destruct t as [sp l| | |]; try discriminate; symmetry; apply is_zom_lift).
  rewrite Ez. apply andb_true_intro. split.
  - destruct pz; [|reflexivity]. rewrite (Hp eq_refl). reflexivity.
  - apply IH; [exact Hl|exact (adj_zom_tail _ _ Ha)|]. intros Hz. destruct ts as [|t1 ts']; [exact I|].
    cbn [adj_zom] in Ha. rewrite Hz in Ha. apply orb_false_iff in Ha. exact (proj1 Ha).
Qed.

Lemma last_not_sep_leaves : forall ts, forallb is_leaf ts = true -> last_not_sep ts -> last_opt (map leaf_of ts) <> Some LSep.
Proof.
  unfold last_not_sep. induction ts as [|t ts IH]; intros Hl H; [discriminate|]. cbn [forallb] in Hl. apply andb_prop in Hl. destruct Hl as [Ht Hl].
  destruct ts as [|t1 ts']; [|exact (IH Hl H)]. cbn in *. destruct t as [sp l| | |]; try discriminate. destruct l; discriminate.
Qed.

Lemma ztail_tokens : forall ts, forallb is_leaf ts = true -> ztail (map leaf_of ts) -> ztailT ts.
Proof.
  intros ts Hl H. remember (map leaf_of ts) as x eqn:E. revert ts Hl E. induction H as [lz|lz x Hx IH]; intros ts Hl E.
  - destruct ts as [|[sp l| | |] [|t1 ts']]; try discriminate. cbn in E. inversion E; subst. constructor.
  - destruct ts as [|[sp l| | |] [|[sp1 l1| | |] ts']]; try discriminate. cbn [map leaf_of] in E. inversion E; subst. constructor. apply IH; [|reflexivity].
    cbn [forallb] in Hl. exact Hl.
Qed.

Lemma open_tail_tokens : forall ts, forallb is_leaf ts = true -> open_tail_l (map leaf_of ts) -> open_tail ts.
Proof.
  intros ts Hl [pre [r [suf [E Hs]]]]. apply map_eq_app in E. destruct E as [tpre [trest [-> [_ E]]]].
  destruct trest as [|t tsuf]; [discriminate|]. cbn [map] in E. inversion E as [[Et Es]]. rewrite forallb_app in Hl. apply andb_prop in Hl. destruct Hl as [_ Hl].
  cbn [forallb] in Hl. apply andb_prop in Hl. destruct Hl as [Ht Hsuf]. destruct t as [sp l| | |]; try discriminate. cbn [leaf_of] in Et. subst l.
  exists tpre, sp, r, tsuf. split; [reflexivity|]. subst suf. destruct Hs as [Hs|Hs]; [left; destruct tsuf; [reflexivity|discriminate]|right; exact (ztail_tokens tsuf Hsuf Hs)].
Qed.

Lemma flat_open_tail_l : forall sp ts, forallb is_leaf ts = true -> is_exhaustive (TCat sp ts) = Ok Always ->
  adjacent_boundary ts = None -> adj_zom ts = false -> last_not_sep ts -> open_tail_l (map leaf_of ts).
Proof.
  intros sp ts Hl He Hab Haz Hls.
  apply (covered_open_tail st_ok (TCat sp ts)); [|exact He|exact (leaves_expand sp ts Hl)| | |exact (last_not_sep_leaves ts Hl Hls)].
  - exact (frq_covered _ (frp_frq _ (leaves_frp sp ts Hl)) (leaves_nonempty sp ts Hl (always_nonempty sp ts He))).
  - apply chain_of_tokens; [exact Hl|exact Hab|discriminate].
  - apply zchain_of_tokens; [exact Hl|exact Haz|discriminate].
Qed.

(* C09: a flat, rule-checked pattern that reports Always is in the class: its last tree wildcard is followed by `*` components only *)
Theorem always_open_tail : forall sp ts, forallb is_leaf ts = true -> is_exhaustive (TCat sp ts) = Ok Always ->
  adjacent_boundary ts = None -> adj_zom ts = false -> last_not_sep ts -> open_tail ts.
Proof. intros sp ts Hl He Hab Haz Hls. exact (open_tail_tokens ts Hl (flat_open_tail_l sp ts Hl He Hab Haz Hls)). Qed.

(* C09 for flat rule-checked patterns: an `Always` verdict is sound *)
Theorem flat_always_sound : forall orbit sp ts p z, forallb is_leaf ts = true -> is_exhaustive (TCat sp ts) = Ok Always ->
  adjacent_boundary ts = None -> adj_zom ts = false -> last_not_sep ts -> nosep z = true ->
  Spec.Lang orbit (TCat sp ts) p -> Spec.Lang orbit (TCat sp ts) (p ++ SEP :: z).
Proof.
  intros orbit sp ts p z Hl He Hab Haz Hls Hz [x [Hx Hm]]. exists x. split; [exact Hx|].
  inversion Hx as [| |? ? xs HF|]; subst. rewrite (expands_leaves _ _ Hl HF) in *.
  apply open_tail_l_extends; [exact (flat_open_tail_l sp ts Hl He Hab Haz Hls)|exact Hz|exact Hm].
Qed.

(* every flat glob that builds, does not end with a separator and reports "always exhaustive" matches everything beneath what it matches *)
Theorem built_flat_always_sound : forall orbit e sp ts r p z,
  build e = BuildOk (TCat sp ts) r -> forallb is_leaf ts = true ->
  is_exhaustive (TCat sp ts) = Ok Always -> last_not_sep ts -> nosep z = true ->
  Lang orbit (TCat sp ts) p -> Lang orbit (TCat sp ts) (p ++ SEP :: z).
Proof.
  intros orbit e sp ts r p z Hb Hl He Hlast Hz HL. destruct (build_ok_inv _ _ _ Hb) as [Hp [Hc _]].
  pose proof (built_no_adjacent_boundary_everywhere _ Hc sp ts (sub_refl _)) as Ha.
  pose proof (parse_no_adjacent_zom _ _ Hp) as Hzo. cbn [zom_ok] in Hzo. apply andb_prop in Hzo. destruct Hzo as [Hzo _]. apply negb_true_iff in Hzo.
  eapply flat_always_sound; eassumption.
Qed.

(* C09: for every glob that builds and has no repetition, an `Always` verdict is sound - outside the known class trailing_boundary *)
Theorem built_rep_free_always_sound : forall orbit e t r p z,
  build e = BuildOk t r -> rep_free t = true -> is_exhaustive t = Ok Always -> may_end_sep t = false -> nosep z = true ->
  Lang orbit t p -> Lang orbit t (p ++ SEP :: z).
Proof.
  intros orbit e t r p z Hb Hrf He Hms Hz [x [Hx Hm]].
  pose proof (built_nonempty_branches e t r Hb) as Hne.
  pose proof (shp_covered t (sh_shp t (built_sh e t r Hb) Hrf) Hne) as HS.
  exists x. split; [exact Hx|]. apply (covered_always_sound _ orbit t p z x HS He Hz Hx); [| | |exact Hm].
  - exact (built_no_adjacent_boundaries e t r Hb Hrf x Hx).
  - exact (built_no_adjacent_zoms e t r Hb Hrf x Hx).
  - exact (no_trailing_sep_solid t (rep_free_solid t Hne Hrf) Hms x Hx).
Qed.
