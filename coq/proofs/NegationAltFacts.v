(* NegationAltFacts.v -- C03 for negations whose alternatives have sound exhaustive verdicts: when every `Always` verdict among the
   alternatives of the negated pattern keeps its promise (C09), walk.not(pattern) yields exactly the entries of the underlying walk
   that the pattern does not match (`not_filters`).  The flat rule-checked patterns are such alternatives
   (BuiltExhaust.flat_always_sound); NegationRep discharges the promise for built globs. *)
From WaxModel Require Import Base Token Spec Variance Fold Query Walk.
From WaxProofs Require Import AlgebraFacts WalkFacts PruneFacts GlobWalkFacts NotWalkFacts NegationFacts NegationWalkFacts BuiltExhaust.
Local Open Scope nat_scope.

Section NegationAlt.
Variable orbit : char -> list char.
Notation Lang := (Spec.Lang orbit).

Definition sound_alt (a : tok) : Prop :=
  tok_bounds_ok a /\ (is_exhaustive a = Ok Always -> forall w z, nosep z = true -> Lang a w -> Lang a (w ++ SEP :: z)).

Lemma flat_sound : forall a, flat_ok a -> sound_alt a.
Proof.
  intros a Ha. split; [exact (flat_bounds_ok a Ha)|]. destruct a as [| |sp ts|]; try contradiction.
  destruct Ha as [Hl [Hab [Haz Hls]]]. intros He w z Hz Hw. apply flat_always_sound; assumption.
Qed.

Lemma sound_descendants : forall a, sound_alt a -> is_exhaustive a = Ok Always ->
  forall r p, p <> [] -> Forall valid_name r -> Lang a (join_path p) -> Lang a (join_path (p ++ r)).
Proof.
  intros a [_ Hs] He. induction r as [|c r IH]; intros p Hp Hr Hl; [rewrite app_nil_r; exact Hl|].
  inversion Hr as [|? ? [_ Hc] Hr']; subst. change (c :: r) with ([c] ++ r). rewrite app_assoc.
  apply IH; [destruct p; discriminate|exact Hr'|]. rewrite join_app by (assumption || discriminate). apply Hs; assumption.
Qed.

(* what the C03 theorems about a whole negation conclude: its two programs match exactly the documented language of the
   pattern, and over a tree with valid names `not` is the per-entry filter *)
Definition not_filters (t : tok) (exh nonexh : option (str -> bool)) : Prop :=
  (forall q, matched exh nonexh q = true <-> Lang t (join_path q)) /\
  forall ls mind maxd root, names_valid root ->
    yields (walk mind maxd (ls ++ [nl exh nonexh]) root) =
    filter (fun q => negb (matched exh nonexh q)) (yields (walk mind maxd ls root)).

Theorem negation_walk_sound_alts : forall t ext nxt exh nonexh,
  Forall sound_alt (into_alternatives t) -> not_partition t = Ok (ext, nxt) ->
  decides orbit exh ext -> decides orbit nonexh nxt -> opt_match exh [] = false -> not_filters t exh nonexh.
Proof.
  intros t ext nxt exh nonexh Hsound Hpart Hde Hdn Hroot.
  assert (Hb : Forall tok_bounds_ok (into_alternatives t)) by (eapply Forall_impl; [|exact Hsound]; intros a [Ha _]; exact Ha).
  split.
  - intros q. unfold matched. rewrite orb_true_iff, (decides_lang orbit exh ext _ Hde), (decides_lang orbit nonexh nxt _ Hdn).
    apply (not_partition_lang orbit t ext nxt (join_path q) Hb Hpart).
  - intros ls. apply not_walk_valid_names.
    (* the promise: an alternative of the exhaustive part that matches a directory matches everything beneath it *)
    destruct (not_partition_parts t ext nxt Hb Hpart) as [ex [nx [Pex [_ [Hex Hcover]]]]].
    intros p r Hv Hr Hm. unfold matched. apply orb_true_iff. left.
    destruct p as [|c0 p0]; [cbn [join_path] in Hm; congruence|].
    apply (decides_lang orbit exh ext _ Hde), (part_lang orbit ex ext _ Pex).
    apply (decides_lang orbit exh ext _ Hde), (part_lang orbit ex ext _ Pex) in Hm. destruct Hm as [a [Hin Hl]].
    exists a. split; [exact Hin|]. rewrite Forall_forall in Hsound.
    apply sound_descendants; [apply Hsound, Hcover; left; exact Hin|exact (Hex a Hin)|discriminate|exact (proj2 (proj1 (Forall_app _ _ _) Hv))|exact Hl].
Qed.

End NegationAlt.
