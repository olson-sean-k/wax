(* PartitionIdem.v -- C08, second sentence: partitioning the postfix of a partition yields an empty prefix and the same postfix.
   The prefix loop returns either everything before a variant boundary token (a tree wildcard) or everything up to the last
   boundary before the first variant token; what remains begins with invariant non-boundary tokens followed by a variant
   token, or with the variant boundary itself: partitioned again, nothing is popped. *)
From WaxModel Require Import Base Token Variance Fold Query.
From WaxProofs Require Import OwnedFacts PartitionFacts PartitionRoot PartitionLang.

Section PartitionIdem.
Variable has_casing : char -> bool.
Notation text_variance := (text_variance has_casing).
Notation prefix_loop := (prefix_loop has_casing).
Notation invariant_text_prefix := (invariant_text_prefix has_casing).
Notation partition := (partition has_casing).
Notation vart := (vart has_casing).
Notation inv_nb := (inv_nb has_casing).

(* what remains after the popped tokens: invariant non-boundary tokens, then a variant token; a variant boundary comes first *)
Definition clean (l : list tok) : Prop :=
  exists nb v rest, l = nb ++ v :: rest /\ Forall inv_nb nb /\ vart v /\ (is_boundary v = true -> nb = []).

Lemma loop_clean : forall nb v rest n head, Forall inv_nb nb -> vart v -> (is_boundary v = true -> nb = [] /\ head = None) ->
  prefix_loop n (nb ++ v :: rest) head None = Ok None.
Proof.
  induction nb as [|t nb IH]; intros v rest n head Hnb [b Hv] Hb.
  - cbn [app Query.prefix_loop]. rewrite Hv. cbn [rbind]. destruct (is_boundary v) eqn:Eb; [|reflexivity]. destruct (Hb eq_refl) as [_ ->]. reflexivity.
  - inversion Hnb as [|? ? [[x Hx] Hnbt] Hnb']; subst. cbn [app Query.prefix_loop]. rewrite Hx. cbn [rbind]. rewrite Hnbt.
    apply IH; [exact Hnb'|exists b; exact Hv|]. intros Eb. destruct (Hb Eb) as [Hnil _]. discriminate.
Qed.

Lemma loop_respan : forall g ts n head chk, prefix_loop n (map (respan g) ts) head chk = prefix_loop n ts head chk.
Proof.
  induction ts as [|t ts IH]; intros n head chk; [reflexivity|]. cbn [map Query.prefix_loop]. rewrite text_variance_respan, is_boundary_respan.
  destruct (text_variance t) as [[txt|b]|]; cbn [rbind]; [apply IH|reflexivity|reflexivity].
Qed.

Lemma itp_respan : forall g sp ts, invariant_text_prefix (respan g (TCat sp ts)) = invariant_text_prefix (TCat sp ts).
Proof.
  intros g sp ts. unfold Query.invariant_text_prefix. cbn [respan concatenation]. rewrite loop_respan.
  destruct ts as [|t0 ts']; [reflexivity|]. cbn [map]. rewrite has_root_respan, text_variance_respan. reflexivity.
Qed.

Lemma unroot_props : forall t, text_variance (fst (unroot t)) = text_variance t /\ is_boundary (fst (unroot t)) = is_boundary t.
Proof. intros t. destruct (unroot_cases t) as [->|(s & n & -> & ->)]; split; reflexivity. Qed.

(* unrooting changes neither the text of the first token nor whether it is a boundary, so the loop does not see it *)
Lemma loop_unroot : forall first rest n head chk, prefix_loop n (fst (unroot first) :: rest) head chk = prefix_loop n (first :: rest) head chk.
Proof. intros first rest n head chk. destruct (unroot_props first) as [Uv Ub]. cbn [Query.prefix_loop]. rewrite Uv, Ub. reflexivity. Qed.

Lemma stops_clean : forall pre first rest, stops has_casing pre (first :: rest) -> clean (first :: rest).
Proof.
  intros pre first rest [E|[[v [rest0 [E [Hv Hbv]]]]|[_ [nb [v [rest0 [E [Hnb [Hv Hbv]]]]]]]]]; [discriminate| |].
  - exists [], v, rest0. split; [exact E|]. split; [constructor|auto].
  - exists nb, v, rest0. split; [exact E|]. split; [exact Hnb|]. split; [exact Hv|]. rewrite Hbv. discriminate.
Qed.

Lemma unroot_unrooted : forall g t, unroot (respan g (fst (unroot t))) = (respan g (fst (unroot t)), 0%N).
Proof.
  intros g [[a b] l| | |]; try reflexivity. destruct l as [ci s| |ng ar| |z|[|]]; cbn [unroot fst respan]; destruct (g _); reflexivity.
Qed.

(* C08: partitioned again, the postfix yields an empty prefix and itself *)
Theorem partition_idempotent : forall e sp ts text post e',
  bounds_list ts -> partition e (TCat sp ts) = Ok (PartSome text post e') ->
  (match post with TCat _ (t0 :: _) => has_root t0 <> Always | _ => True end) ->
  partition e' post = Ok (PartSome [] post e').
Proof.
  intros e sp ts text post e' Hb H Hroot.
  destruct (partition_shape has_casing _ _ _ _ _ _ Hb H) as [pre [first [rest [-> [Hcut [Hpost _]]]]]].
  (* nothing is popped from the postfix *)
  assert (Hi : invariant_text_prefix post = Ok (0%N, [])).
  { rewrite Hpost in Hroot |- *. rewrite itp_respan. cbn [respan map] in Hroot. rewrite has_root_respan in Hroot.
    assert (Hclean : clean (first :: rest)).
    { destruct (itp_cut has_casing _ _ _ _ Hcut) as [[_ [t0 [rest0 [E [_ Hv]]]]]|[txts [_ [_ Hstop]]]]; [|exact (stops_clean _ _ _ Hstop)].
      exists [], t0, rest0. split; [exact E|]. split; [constructor|auto]. }
    destruct Hclean as [nb [v [rest' [Hl [Hnb [Hv Hbv]]]]]].
    unfold Query.invariant_text_prefix. cbn [concatenation]. rewrite loop_unroot, Hl, (loop_clean nb v rest' 0%N None Hnb Hv) by auto.
    destruct (has_root (fst (unroot first))); try reflexivity; congruence. }
  subst post.
  pose proof (bounds_respan (shift (sum_spans pre + snd (unroot first))) _ (postfix_bounds_ok sp pre first rest Hb)) as Hbp.
  cbn [respan map] in *. unfold Query.partition. rewrite Hi. cbn [rbind length].
  rewrite (proj2 (N.leb_gt _ 0)) by lia.
  cbn [N.to_nat firstn skipn]. rewrite unroot_unrooted. cbn [sum_spans]. rewrite N.add_0_r.
  match goal with |- rbind (fold_map ?f ?p) _ = _ => rewrite (fold_map_respan f p Hbp); cbn [rbind]; rewrite (respan_id f p) end.
  - rewrite drop_bytes_0. reflexivity.
  - intros [a b]. cbn [fst snd]. rewrite N.sub_0_r. reflexivity.
Qed.

End PartitionIdem.
