(* BuiltConformance.v -- C01 for the globs that build: outside the three known classes (a class with a reversed range, a rooted
   tree wildcard that begins the expression and is followed by something, a tree wildcard whose flat position is not the same in
   every expansion) the compiled program matches exactly the documented language. *)
From WaxModel Require Import Base Token Regex Spec Encode Glob.
From WaxProofs Require Import SpecFacts AlgebraFacts EncodeLang BuiltFacts BuiltNonempty.

Definition bad_ctx (x : bool * bool * bool) : bool := match x with (root, s0, e0) => root && s0 && negb e0 end.

Fixpoint ctxs_cat (s e : bool) (ts : list tok) (first : bool) : list (bool * bool * bool) :=
  match ts with
  | [] => []
  | t0 :: ts' => tree_ctxs t0 (s && first) (e && is_nil ts') ++ ctxs_cat s e ts' false
  end.

Lemma tree_ctxs_cat : forall sp ts s e, tree_ctxs (TCat sp ts) s e = ctxs_cat s e ts true.
Proof.
  intros sp ts s e. cbn [tree_ctxs].
  match goal with |- ?F ts true = _ => assert (G : forall l first, F l first = ctxs_cat s e l first) end.
  { induction l as [|t0 l IH]; intros first; [reflexivity|]. cbn [ctxs_cat]. rewrite <- IH. reflexivity. }
  apply G.
Qed.

Lemma exact_split : forall t s ps e pe,
  stable_gen true t s ps e pe = stable_gen false t s ps e pe && negb (existsb bad_ctx (tree_ctxs t s e)).
Proof.
  induction t as [sp l|sp bs IH|sp ts IH|sp b lo hi IH] using tok_ind'; intros s ps e pe.
  - destruct l; cbn [stable_gen tree_ctxs existsb]; try reflexivity. cbn [andb bad_ctx]. rewrite orb_false_r.
    destruct (poss_ok s ps), (poss_ok e pe), root, s, e; reflexivity.
  - cbn [stable_gen tree_ctxs]. induction IH as [|b bs' Hb _ IHb]; [reflexivity|].
    cbn [forallb flat_map]. rewrite existsb_app, Hb, IHb.
    destruct (stable_gen false b s ps e pe), (forallb (fun b0 => stable_gen false b0 s ps e pe) bs'),
      (existsb bad_ctx (tree_ctxs b s e)), (existsb bad_ctx (flat_map (fun b0 => tree_ctxs b0 s e) bs')); reflexivity.
  - rewrite !stable_gen_cat, tree_ctxs_cat.
    assert (G : forall first pre, stable_cat (stable_gen true) s ps e pe ts first pre =
              stable_cat (stable_gen false) s ps e pe ts first pre && negb (existsb bad_ctx (ctxs_cat s e ts first))).
    { induction IH as [|t0 ts' H0 _ IHt]; intros first pre; [reflexivity|].
      cbn [stable_cat ctxs_cat]. rewrite existsb_app, H0, IHt.
      destruct (stable_gen false t0 _ _ _ _), (stable_cat (stable_gen false) _ _ _ _ _ _ _), (existsb bad_ctx (tree_ctxs _ _ _)), (existsb bad_ctx (ctxs_cat _ _ _ _)); reflexivity. }
    apply G.
  - cbn [stable_gen tree_ctxs]. apply IH.
Qed.

Lemma trees_exact_split : forall t, trees_exact t = trees_stable t && negb (rooted_first_tree t).
Proof. intros t. unfold trees_exact, trees_stable, stable, rooted_first_tree. rewrite exact_split. reflexivity. Qed.

Definition wf_of_bounds_at (t : tok) : Prop :=
  nonempty_branches t = true -> tok_bounds_ok t -> has_reversed_range t = false -> wf_tok t = true.

Lemma wf_of_bounds_all : forall ts, Forall wf_of_bounds_at ts ->
  Forall (fun t => nonempty_branches t = true) ts -> Forall tok_bounds_ok ts -> existsb has_reversed_range ts = false ->
  Forall (fun t => wf_tok t = true) ts.
Proof.
  intros ts IH. induction IH as [|c ts Hc _ IHts]; intros Hn Hb Hr; constructor; cbn [existsb] in Hr; apply orb_false_iff in Hr.
  - apply Hc; [exact (Forall_inv Hn)|exact (Forall_inv Hb)|exact (proj1 Hr)].
  - apply IHts; [exact (Forall_inv_tail Hn)|exact (Forall_inv_tail Hb)|exact (proj2 Hr)].
Qed.

Lemma wf_of_bounds : forall t, wf_of_bounds_at t.
Proof.
  induction t as [sp l|sp bs IH|sp ts IH|sp b lo hi IH] using tok_ind'; intros Hn Hb Hr.
  - destruct l; try reflexivity. apply negb_false_iff in Hr. exact Hr.
  - apply nonempty_branches_alt in Hn. destruct Hn as [Hne Hn]. apply wf_tok_alt. split; [exact Hne|].
    exact (wf_of_bounds_all bs IH Hn (proj1 (tok_bounds_ok_alt sp bs) Hb) Hr).
  - apply nonempty_branches_cat in Hn. apply wf_tok_cat.
    exact (wf_of_bounds_all ts IH (proj2 Hn) (proj1 (tok_bounds_ok_cat sp ts) Hb) Hr).
  - apply nonempty_branches_rep in Hn. destruct (proj1 (tok_bounds_ok_rep sp b lo hi) Hb) as [Hbb [_ Hhi]]. cbn [wf_tok].
    rewrite (IH (proj1 Hn) Hbb Hr). destruct hi as [h|]; [|reflexivity]. apply N.leb_le. exact (proj1 Hhi).
Qed.

Theorem built_wf : forall e t r, build e = BuildOk t r -> has_reversed_range t = false -> wf_tok t = true.
Proof.
  intros e t r H Hr. apply wf_of_bounds; [exact (built_nonempty_branches e t r H)|exact (built_bounds_ok e t r H)|exact Hr].
Qed.

(* C01 for every glob that builds, outside the known classes reversed_class_range, unstable_tree_position and rooted_first_tree *)
Theorem built_conformance : forall orbit e t r,
  build e = BuildOk t r -> has_reversed_range t = false -> trees_stable t = true -> rooted_first_tree t = false ->
  forall w, sem orbit (encode t) w <-> Lang orbit t w.
Proof.
  intros orbit e t r Hb Hr Hs Hf w. apply conformance; [eapply built_wf; eassumption|]. rewrite trees_exact_split, Hs, Hf. reflexivity.
Qed.
