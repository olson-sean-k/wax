(* WalkFacts.v -- C13: the combinator stack machine of Walk.v is the pruned pre-order, for every tree, every stack of
   layers, every depth window (`run_refines`, `walk_refines`).  Then facts about that specification: the final tag as a
   fold over the stack (C16: `tag_rank`, `tag_independent`, `strip`), errors (C20), where entries lie (C15:
   `entry_in_spec`, `entry_in_window`), and `layer_filters` - a layer whose verdicts agree with a predicate on paths filters what the walk
   yields - with its two instances, the glob layer (C02) and the negation layer (C03).  The vocabulary of the walk
   theorems is defined here: `yields`, `all_entries`, `keeps`, `opt_match`, `nl`, `matched`. *)
From Coq Require Import Arith Permutation.
From WaxModel Require Import Base Walk.
Local Open Scope nat_scope.

Lemma flat_map_hom : forall {A B C} (h : list B -> list C) (f : A -> list B) l,
  h [] = [] -> (forall a b, h (a ++ b) = h a ++ h b) -> h (flat_map f l) = flat_map (fun a => h (f a)) l.
Proof.
  intros A B C h f l Hnil Happ. induction l as [|a l IH]; cbn [flat_map]; [exact Hnil|].
  rewrite Happ, IH. reflexivity.
Qed.

Lemma flat_map_ext_Forall : forall {A B} (f g : A -> list B) l,
  Forall (fun a => f a = g a) l -> flat_map f l = flat_map g l.
Proof.
  intros A B f g l H. induction H as [|a l Ha _ IH]; cbn [flat_map]; [reflexivity|].
  rewrite Ha, IH. reflexivity.
Qed.

Lemma filter_all_false : forall {A} (f : A -> bool) l, (forall a, In a l -> f a = false) -> filter f l = [].
Proof.
  induction l as [|a l IH]; intros H; [reflexivity|]. cbn [filter]. rewrite (H a (or_introl eq_refl)).
  apply IH. intros b Hb. apply H. right. exact Hb.
Qed.

Lemma nth_error_skipn : forall {A} (l : list A) d i, nth_error (skipn d l) i = nth_error l (d + i).
Proof. induction l as [|a l IH]; intros [|d] i; cbn; try reflexivity; [destruct i; reflexivity|apply IH]. Qed.

Lemma through_RTree : forall l e c acc, exists acc', through l e RTree c acc = (RTree, c, acc').
Proof.
  induction l as [|x l IH]; intros e c acc; cbn [through]; [eexists; reflexivity|].
  destruct (x e RTree); cbn [step_layer]; apply IH.
Qed.

(* from filtrate (or node residue) the walk is cancelled at most once, and exactly when the entry ends up
   discarded as a tree *)
Lemma through_shape : forall l e t c acc, t <> RTree ->
  (exists acc', through l e t c acc = (RTree, S c, acc')) \/
  (exists t' acc', t' <> RTree /\ through l e t c acc = (t', c, acc')).
Proof.
  induction l as [|x l IH]; intros e t c acc Ht; cbn [through].
  - right. exists t, (rev acc). split; [exact Ht|reflexivity].
  - destruct (x e t) eqn:Ex, t; cbn [step_layer]; try congruence; try (apply IH; congruence);
      left; apply through_RTree.
Qed.

Definition tag_after (e : entry) (t : tag) (x : layer) : tag := fst (step_layer (x e t) t).

Lemma through_tag : forall l e t c acc, fst (fst (through l e t c acc)) = fold_left (tag_after e) l t.
Proof.
  induction l as [|x l IH]; intros e t c acc; cbn [through fold_left]; [reflexivity|].
  change (tag_after e t x) with (fst (step_layer (x e t) t)).
  destruct (step_layer (x e t) t) as [t' b]. apply IH.
Qed.

Lemma final_tag_fold : forall l e, final_tag l e = fold_left (tag_after e) l Filtrate.
Proof. intros l e. apply through_tag. Qed.

Lemma final_tag_snoc : forall ls l e,
  final_tag (ls ++ [l]) e = fst (step_layer (l e (final_tag ls e)) (final_tag ls e)).
Proof. intros ls l e. rewrite !final_tag_fold, fold_left_app. reflexivity. Qed.

Definition tag_rank (t : tag) : nat := match t with Filtrate => 0 | RNode => 1 | RTree => 2 end.

Lemma step_layer_monotone : forall v t, tag_rank t <= tag_rank (fst (step_layer v t)).
Proof. intros [] []; cbn; lia. Qed.

(* a later layer never brings an entry back nor downgrades a discarded tree to a discarded file *)
Lemma fold_tag_monotone : forall e l t, tag_rank t <= tag_rank (fold_left (tag_after e) l t).
Proof.
  intros e l. induction l as [|x l IH]; intros t; cbn [fold_left]; [lia|].
  etransitivity; [apply (step_layer_monotone (x e t))|apply IH].
Qed.

Lemma through_seen_length : forall l e t c acc, length (snd (through l e t c acc)) = length l + length acc.
Proof.
  induction l as [|x l IH]; intros e t c acc; cbn [through].
  - cbn. rewrite rev_length. reflexivity.
  - destruct (step_layer (x e t) t) as [t' b]. rewrite IH. cbn [length]. lia.
Qed.

(* layers whose verdict does not depend on how the entry reaches them *)
Definition tag_independent (l : layer) : Prop := forall e t, l e t = l e Filtrate.

Lemma tag_after_independent : forall x e t, tag_independent x -> tag_after e t x = fst (step_layer (x e Filtrate) t).
Proof. intros x e t H. unfold tag_after. rewrite (H e t). reflexivity. Qed.

Lemma fold_tag_permutation : forall e l l', Permutation l l' -> Forall tag_independent l ->
  forall t, fold_left (tag_after e) l t = fold_left (tag_after e) l' t.
Proof.
  intros e l l' Hp. induction Hp as [|x l l' _ IH|x y l|l l' l'' Hp1 IH1 _ IH2]; intros Hi t.
  - reflexivity.
  - apply IH. exact (Forall_inv_tail Hi).
  - (* two verdicts that do not depend on the tag commute *)
    cbn [fold_left]. f_equal.
    pose proof (Forall_inv Hi) as Hy. pose proof (Forall_inv (Forall_inv_tail Hi)) as Hx.
    rewrite !tag_after_independent by assumption.
    destruct (x e Filtrate), (y e Filtrate), t; reflexivity.
  - rewrite (IH1 Hi). apply IH2. rewrite Forall_forall in Hi |- *.
    intros z Hz. apply Hi. exact (Permutation_in z (Permutation_sym Hp1) Hz).
Qed.

(* C16: the outcome for an entry does not depend on the order of the stack *)
Lemma final_tag_permutation : forall l l' e,
  Permutation l l' -> Forall tag_independent l -> final_tag l e = final_tag l' e.
Proof. intros l l' e Hp Hi. rewrite !final_tag_fold. apply fold_tag_permutation; assumption. Qed.

Section node_ind.
  Variable P : node -> Prop.
  Hypothesis Hfile : P NFile.
  Hypothesis Hdir : forall kids, Forall (fun k => P (snd k)) kids -> P (NDir kids).
  Hypothesis Hdirerr : P NDirErr.
  Hypothesis Herr : P NErr.
  Fixpoint node_ind' (n : node) : P n :=
    match n with
    | NFile => Hfile
    | NDir kids => Hdir kids ((fix go (l : list (name * node)) : Forall (fun k => P (snd k)) l :=
                      match l with [] => Forall_nil _ | k :: l' => Forall_cons k (node_ind' (snd k)) (go l') end) kids)
    | NDirErr => Hdirerr
    | NErr => Herr
    end.
End node_ind.

Lemma spec_dir : forall ls mind maxd d p kids,
  spec ls mind maxd d p (NDir kids) =
  shown ls mind d (mkEntry p true) ++
  (if pruned ls mind d (mkEntry p true) || over maxd (S d) then []
   else flat_map (fun k => spec ls mind maxd (S d) (p ++ [fst k]) (snd k)) kids).
Proof. reflexivity. Qed.

Lemma spec_direrr : forall ls mind maxd d p,
  spec ls mind maxd d p NDirErr =
  shown ls mind d (mkEntry p true) ++
  (if pruned ls mind d (mkEntry p true) || over maxd (S d) then [] else [RError p d]).
Proof. reflexivity. Qed.

Lemma in_shown : forall l mind d e x,
  In x (shown l mind d e) -> mind <= d /\ x = REntry e (final_tag l e) (seen_tags l e).
Proof.
  intros l mind d e x H. unfold shown in H. destruct (Nat.ltb_spec d mind) as [|Hd]; [contradiction|].
  destruct H as [<-|[]]. split; [exact Hd|reflexivity].
Qed.

Lemma pruned_nil : forall mind d e, pruned [] mind d e = false.
Proof. intros. apply andb_false_r. Qed.

Lemma pruned_snoc : forall ls l mind d e,
  pruned (ls ++ [l]) mind d e =
  pruned ls mind d e || negb (Nat.ltb d mind) && match l e (final_tag ls e) with VTree => true | _ => false end.
Proof.
  intros ls l mind d e. unfold pruned. rewrite final_tag_snoc.
  destruct (Nat.ltb d mind), (final_tag ls e), (l e _); reflexivity.
Qed.

Lemma in_dir_spec : forall l mind maxd d e (beneath : list ritem) x,
  In x (shown l mind d e ++ (if pruned l mind d e || over maxd (S d) then [] else beneath)) ->
  In x (shown l mind d e) \/ (over maxd (S d) = false /\ In x beneath).
Proof.
  intros l mind maxd d e beneath x H. apply in_app_or in H as [H|H]; [left; exact H|right].
  destruct (pruned l mind d e || over maxd (S d)) eqn:E; [contradiction|]. apply orb_false_iff in E as [_ E]. auto.
Qed.

Section Refinement.
Variable ls : list layer.
Variable mind : nat.
Variable maxd : option nat.

Definition spec_item (d : nat) (it : fitem) : list ritem :=
  match it with
  | FI p n => spec ls mind maxd d p n
  | FE p e => [RError p e]
  end.
Definition spec_frame (d : nat) (f : frame) : list ritem :=
  if over maxd d then [] else flat_map (spec_item d) f.
Fixpoint spec_wd (st : wd) : list ritem :=
  match st with
  | [] => []
  | f :: rest => spec_frame (length rest) f ++ spec_wd rest
  end.

Definition isize (it : fitem) : nat := match it with FI _ n => nsize n | FE _ _ => 1 end.
Definition fsize (f : frame) : nat := fold_right (fun it a => isize it + a) 0 f.
Definition wsize (st : wd) : nat := fold_right (fun f a => fsize f + a) 0 st.
Definition measure (st : wd) : nat := 2 * wsize st + length st.

Lemma push_spec : forall d p kids,
  flat_map (spec_item d) (push p kids) = flat_map (fun k => spec ls mind maxd d (p ++ [fst k]) (snd k)) kids.
Proof. intros d p kids. unfold push. rewrite !flat_map_concat_map, map_map. reflexivity. Qed.

Lemma nsize_dir : forall p kids, nsize (NDir kids) = S (fsize (push p kids)).
Proof. intros p kids. cbn [nsize]. f_equal. induction kids as [|k ks IH]; cbn; [reflexivity|]. f_equal. exact IH. Qed.

Lemma measure_cons : forall (f : frame) (st : wd), measure (f :: st) = 2 * fsize f + 1 + measure st.
Proof. intros. unfold measure, wsize. cbn [fold_right length]. lia. Qed.

Lemma measure_cons_item : forall (it : fitem) (sibs : frame) (rest : wd),
  measure ((it :: sibs) :: rest) = 2 * isize it + measure (sibs :: rest).
Proof. intros. rewrite !measure_cons. unfold fsize. cbn [fold_right]. lia. Qed.

Lemma measure_skip : forall st, measure (wd_skip st) <= measure st.
Proof. intros [|f st]; cbn [wd_skip tl]; [|rewrite measure_cons]; lia. Qed.

Lemma spec_wd_skip : forall (f : frame) (rest : wd),
  over maxd (length rest) = true \/ f = [] -> spec_wd (f :: rest) = spec_wd rest.
Proof.
  intros f rest [H| ->]; cbn [spec_wd]; unfold spec_frame; [rewrite H|destruct (over maxd (length rest))]; reflexivity.
Qed.

Lemma spec_wd_cons_item : forall (it : fitem) (sibs : frame) (rest : wd), over maxd (length rest) = false ->
  spec_wd ((it :: sibs) :: rest) = spec_item (length rest) it ++ spec_wd (sibs :: rest).
Proof. intros it sibs rest H. cbn [spec_wd]. unfold spec_frame. rewrite H. cbn [flat_map]. symmetry. apply app_assoc. Qed.

Lemma wd_next_none : forall (st : wd), wd_next maxd st = None -> spec_wd st = [].
Proof.
  induction st as [|f rest IH]; [reflexivity|]. cbn [wd_next]. destruct (over maxd (length rest)) eqn:Eo.
  - intros H. rewrite spec_wd_skip by auto. apply IH, H.
  - destruct f as [|[p n|p e] sibs]; [|destruct n; discriminate|discriminate].
    intros H. rewrite spec_wd_skip by auto. apply IH, H.
Qed.

Definition item_spec (it : witem) (st' : wd) : list ritem :=
  match it with
  | WError p d => RError p d :: spec_wd st'
  | WEntry p is_dir d =>
      let e := mkEntry p is_dir in
      shown ls mind d e ++ (if is_dir && pruned ls mind d e then spec_wd (wd_skip st') else spec_wd st')
  end.

(* a directory is yielded and the list [f] of what lies beneath it is pushed: cancelling pops that list *)
Lemma spec_wd_enter : forall p (f sibs : frame) (rest : wd),
  let d := length rest in
  let e := mkEntry p true in
  (shown ls mind d e ++ (if pruned ls mind d e || over maxd (S d) then [] else flat_map (spec_item (S d)) f))
    ++ spec_wd (sibs :: rest) =
  shown ls mind d e ++ (if pruned ls mind d e then spec_wd (sibs :: rest) else spec_wd (f :: sibs :: rest)).
Proof.
  intros p f sibs rest d e. rewrite <- app_assoc. f_equal.
  destruct (pruned ls mind d e); [reflexivity|]. cbn [orb]. cbn [spec_wd length]. unfold spec_frame. fold d.
  destruct (over maxd (S d)); reflexivity.
Qed.

Lemma wd_next_some : forall (st : wd) it st', wd_next maxd st = Some (it, st') ->
  spec_wd st = item_spec it st' /\ measure st' < measure st.
Proof.
  induction st as [|f rest IH]; intros it st' H; [discriminate|]. cbn [wd_next] in H.
  assert (Hskip : over maxd (length rest) = true \/ f = [] -> wd_next maxd rest = Some (it, st') ->
                  spec_wd (f :: rest) = item_spec it st' /\ measure st' < measure (f :: rest)).
  { intros Hs Hn. rewrite (spec_wd_skip _ _ Hs), measure_cons. destruct (IH _ _ Hn) as [H1 H2]. split; [exact H1|lia]. }
  destruct (over maxd (length rest)) eqn:Eo; [apply Hskip; auto|].
  destruct f as [|[p n|p e] sibs]; [apply Hskip; auto| |].
  - rewrite (spec_wd_cons_item _ _ _ Eo), measure_cons_item. cbn [spec_item isize].
    destruct n as [|kids| |]; inversion H; subst; clear H; cbn [item_spec andb wd_skip tl].
    + split; [reflexivity|cbn; lia].
    + rewrite spec_dir, <- push_spec, measure_cons, (nsize_dir p kids). split; [apply spec_wd_enter|lia].
    + rewrite measure_cons. split; [apply (spec_wd_enter p [FE p (length rest)])|cbn; lia].
    + split; [reflexivity|cbn; lia].
  - inversion H; subst; clear H. rewrite (spec_wd_cons_item _ _ _ Eo), measure_cons_item.
    split; [reflexivity|cbn; lia].
Qed.

(* C13: for every tree, stack of layers and depth window, the machine produces exactly the pruned pre-order *)
Theorem run_refines : forall fuel st, measure st < fuel -> run fuel mind maxd ls st = spec_wd st.
Proof.
  induction fuel as [|fuel IH]; intros st Hf; [lia|]. cbn [run].
  destruct (wd_next maxd st) as [[it st']|] eqn:En; [|symmetry; apply wd_next_none, En].
  destruct (wd_next_some _ _ _ En) as [Hs Hm]. rewrite Hs. pose proof (measure_skip st') as Hk.
  destruct it as [p is_dir d|p d]; cbn [item_spec]; [|f_equal; apply IH; lia].
  unfold shown, pruned. destruct (Nat.ltb d mind) eqn:Ed; cbn [negb andb app].
  - rewrite andb_false_r. apply IH. lia.
  - unfold final_tag, seen_tags.
    destruct (through_shape ls (mkEntry p is_dir) Filtrate 0 [] ltac:(discriminate)) as [[acc' Ht] | (t' & acc' & Hn & Ht)];
      rewrite Ht; cbn [fst snd app].
    + destruct is_dir; cbn [andb Nat.iter]; f_equal; apply IH; lia.
    + destruct is_dir; cbn [andb Nat.iter]; f_equal; destruct t'; try congruence; apply IH; lia.
Qed.

Lemma walk_fuel_enough : forall root, measure (wd_init root) < walk_fuel root.
Proof. intros root. unfold measure, wd_init, walk_fuel. cbn. lia. Qed.

Theorem walk_refines : forall root, walk mind maxd ls root = walk_spec mind maxd ls root.
Proof.
  intros root. unfold walk. rewrite run_refines by apply walk_fuel_enough.
  unfold wd_init, walk_spec. cbn [spec_wd length]. unfold spec_frame.
  assert (over maxd 0 = false) as -> by (destruct maxd; reflexivity).
  cbn [flat_map spec_item]. rewrite !app_nil_r. reflexivity.
Qed.

End Refinement.

(* C16: the produced items with the per-layer observations erased; they depend on the stack only through the final tags *)
Definition strip (r : ritem) : ritem :=
  match r with REntry e t _ => REntry e t [] | RError p d => RError p d end.

Lemma spec_ext : forall l l' mind maxd n d p, (forall e, final_tag l e = final_tag l' e) ->
  map strip (spec l mind maxd d p n) = map strip (spec l' mind maxd d p n).
Proof.
  intros l l' mind maxd n d p H.
  assert (Hshown : forall d e, map strip (shown l mind d e) = map strip (shown l' mind d e)).
  { intros d0 e. unfold shown. destruct (Nat.ltb d0 mind); [reflexivity|]. cbn [map strip]. rewrite H. reflexivity. }
  assert (Hpruned : forall d e, pruned l mind d e = pruned l' mind d e) by (intros; unfold pruned; rewrite H; reflexivity).
  revert d p. induction n as [|kids IH| |] using node_ind'; intros d p.
  - apply Hshown.
  - rewrite !spec_dir, !map_app, Hshown, Hpruned. f_equal.
    destruct (pruned l' mind d (mkEntry p true) || over maxd (S d)); [reflexivity|].
    rewrite !(flat_map_hom (map strip)) by (reflexivity || apply map_app).
    apply flat_map_ext_Forall. eapply Forall_impl; [|exact IH]. intros k Hk. apply Hk.
  - rewrite !spec_direrr, !map_app, Hshown, Hpruned. reflexivity.
  - reflexivity.
Qed.

(* C20: layers neither create nor alter error items *)
Lemma errors_from_the_tree : forall l mind maxd n d p q e,
  In (RError q e) (spec l mind maxd d p n) -> In (RError q e) (spec [] mind maxd d p n).
Proof.
  intros l mind maxd n. induction n as [|kids IH| |] using node_ind'; intros d p q e H.
  - apply in_shown in H as [_ H]. discriminate.
  - rewrite spec_dir in *. apply in_dir_spec in H as [H|[Ho H]]; [apply in_shown in H as [_ H]; discriminate|].
    apply in_or_app. right. rewrite pruned_nil, Ho. cbn [orb].
    apply in_flat_map in H as (k & Hk & H). apply in_flat_map. exists k. split; [exact Hk|].
    rewrite Forall_forall in IH. apply (IH k Hk), H.
  - rewrite spec_direrr in *. apply in_dir_spec in H as [H|[Ho H]]; [apply in_shown in H as [_ H]; discriminate|].
    apply in_or_app. right. rewrite pruned_nil, Ho. exact H.
  - exact H.
Qed.

Definition yields (l : list ritem) : list rpath :=
  flat_map (fun r => match r with REntry e Filtrate _ => [e_path e] | _ => [] end) l.

Lemma yields_app : forall a b, yields (a ++ b) = yields a ++ yields b.
Proof. intros. unfold yields. apply flat_map_app. Qed.

Lemma in_yields : forall q l, In q (yields l) -> exists e s, In (REntry e Filtrate s) l /\ q = e_path e.
Proof.
  intros q l H. apply in_flat_map in H as ([e [| |] s|] & Hin & Hq); try contradiction.
  destruct Hq as [<-|[]]. eauto.
Qed.

Lemma yields_error : forall (b : bool) p d, yields (if b then [] else [RError p d]) = [].
Proof. intros []; reflexivity. Qed.

(* every entry of a tree, in pre-order (an unreadable directory is an entry; an error node is not) *)
Fixpoint all_entries (p : rpath) (n : node) : list rpath :=
  match n with
  | NFile | NDirErr => [p]
  | NErr => []
  | NDir kids => p :: (fix go (ks : list (name * node)) : list rpath :=
                         match ks with [] => [] | k :: ks' => all_entries (p ++ [fst k]) (snd k) ++ go ks' end) kids
  end.

Lemma all_entries_dir : forall p kids,
  all_entries p (NDir kids) = p :: flat_map (fun k => all_entries (p ++ [fst k]) (snd k)) kids.
Proof. reflexivity. Qed.

Lemma all_entries_kid : forall p kids k q,
  In k kids -> In q (all_entries (p ++ [fst k]) (snd k)) -> In q (all_entries p (NDir kids)).
Proof. intros p kids k q Hk Hq. rewrite all_entries_dir. right. apply in_flat_map. exists k. auto. Qed.

Lemma all_entries_shift : forall n p, all_entries p n = map (app p) (all_entries [] n).
Proof.
  induction n as [|kids IH| |] using node_ind'; intros p; try (cbn; rewrite app_nil_r; reflexivity); [|reflexivity].
  rewrite !all_entries_dir. cbn [map app]. rewrite app_nil_r. f_equal.
  rewrite (flat_map_hom (map (app p))) by (reflexivity || apply map_app).
  apply flat_map_ext_Forall. eapply Forall_impl; [|exact IH]. intros k Hk.
  rewrite (Hk (p ++ [fst k])), (Hk [fst k]), map_map. apply map_ext. intros q. symmetry. apply app_assoc.
Qed.

Lemma all_entries_extend : forall n p q, In q (all_entries p n) -> exists r, q = p ++ r.
Proof. intros n p q H. rewrite all_entries_shift in H. apply in_map_iff in H as (r & <- & _). exists r. reflexivity. Qed.

Lemma yields_plain : forall n d p, yields (spec [] 0 None d p n) = all_entries p n.
Proof.
  induction n as [|kids IH| |] using node_ind'; intros d p; [reflexivity| |reflexivity|reflexivity].
  rewrite spec_dir, all_entries_dir, pruned_nil, yields_app. cbn [over orb].
  rewrite (flat_map_hom yields _ _ eq_refl yields_app). change (yields (shown [] 0 d (mkEntry p true))) with [p]. cbn [app]. f_equal.
  apply flat_map_ext_Forall. eapply Forall_impl; [|exact IH]. intros k Hk. apply Hk.
Qed.

(* C15: an entry produced for the tree [n] at [p] is an entry of that tree, [length r] levels below [p], and inside the depth
   window *)
Lemma entry_in_spec : forall l mind maxd n d p e t s,
  In (REntry e t s) (spec l mind maxd d p n) ->
  exists r, e_path e = p ++ r /\ In (e_path e) (all_entries p n) /\ mind <= d + length r /\
            (over maxd d = false -> over maxd (d + length r) = false).
Proof.
  intros l mind maxd n.
  assert (Hhere : forall d p b n' e t s,
            In p (all_entries p n') -> In (REntry e t s) (shown l mind d (mkEntry p b)) ->
            exists r, e_path e = p ++ r /\ In (e_path e) (all_entries p n') /\ mind <= d + length r /\
                      (over maxd d = false -> over maxd (d + length r) = false)).
  { intros d p b n' e t s Hp H. apply in_shown in H as [Hd H]. inversion H; subst. exists []. cbn [e_path length].
    rewrite app_nil_r, Nat.add_0_r. auto. }
  induction n as [|kids IH| |] using node_ind'; intros d p e t s H.
  - eapply (Hhere d p false); [left; reflexivity|exact H].
  - rewrite spec_dir in H. apply in_dir_spec in H as [H|[Eo H]]; [eapply (Hhere d p true); [left; reflexivity|exact H]|].
    apply in_flat_map in H as (k & Hk & H).
    rewrite Forall_forall in IH. destruct (IH k Hk _ _ _ _ _ H) as (r & Hr & Hin & Hm & Ho).
    exists (fst k :: r). cbn [length]. rewrite Nat.add_succ_r. rewrite <- app_assoc in Hr.
    split; [exact Hr|]. split; [exact (all_entries_kid _ _ _ _ Hk Hin)|]. split; [exact Hm|]. intros _. exact (Ho Eo).
  - rewrite spec_direrr in H. apply in_dir_spec in H as [H|[_ [H|[]]]]; [|discriminate].
    eapply (Hhere d p true); [left; reflexivity|exact H].
  - destruct H as [H|[]]; discriminate.
Qed.

Corollary entry_in_window : forall l mind maxd n d p e t s,
  over maxd d = false -> In (REntry e t s) (spec l mind maxd d p n) ->
  exists k, length (e_path e) = length p + k /\ mind <= d + k /\ over maxd (d + k) = false.
Proof.
  intros l mind maxd n d p e t s Ho H. apply entry_in_spec in H as (r & Hr & _ & Hm & Hw).
  exists (length r). rewrite Hr, app_length. auto.
Qed.

Lemma spec_yields_entries : forall l mind maxd n d p q, In q (yields (spec l mind maxd d p n)) -> In q (all_entries p n).
Proof.
  intros l mind maxd n d p q H. apply in_yields in H as (e & s & H & ->).
  apply entry_in_spec in H as (r & _ & H & _). exact H.
Qed.

(* the glob walker's component loop in closed form: a tree verdict when a component program rejects the component at its own position; otherwise
   the entry is kept when the complete program matches and there is a component for every program *)
Lemma zip_loop_spec : forall cands progs whole,
  zip_loop cands progs whole =
  if forallb (fun cp => snd cp (fst cp)) (combine cands progs)
  then (if (length progs <=? length cands) && whole then Keep else VFile)
  else VTree.
Proof.
  induction cands as [|c cands IH]; intros [|pr progs] whole; try reflexivity.
  cbn [zip_loop combine forallb fst snd length Nat.leb]. destruct (pr c); [|destruct cands, progs; reflexivity].
  destruct cands as [|c' cands'], progs as [|pr' progs']; try reflexivity; apply IH.
Qed.

Lemma zip_loop_keep : forall cands progs whole,
  zip_loop cands progs whole = Keep -> whole = true /\ length progs <= length cands.
Proof.
  intros cands progs whole H. rewrite zip_loop_spec in H.
  destruct (forallb _ _), (Nat.leb_spec (length progs) (length cands)), whole; try discriminate. auto.
Qed.

Lemma zip_loop_file : forall cands progs whole,
  zip_loop cands progs whole = VFile -> whole = false \/ length cands < length progs.
Proof.
  intros cands progs whole H. rewrite zip_loop_spec in H.
  destruct (forallb _ _), (Nat.leb_spec (length progs) (length cands)), whole; try discriminate; auto.
Qed.

(* a directory is only discarded as a tree when one of the component programs rejects the component of the
   relative path at its own position: skipping it cannot lose an entry all of whose components are accepted *)
Lemma zip_loop_tree : forall cands progs whole,
  zip_loop cands progs whole = VTree ->
  exists i c pr, nth_error cands i = Some c /\ nth_error progs i = Some pr /\ pr c = false.
Proof.
  intros cands progs whole H. rewrite zip_loop_spec in H.
  destruct (forallb _ _) eqn:E; [destruct (_ && _); discriminate|]. clear H.
  revert progs E. induction cands as [|c cands IH]; intros [|pr progs] E; try discriminate.
  cbn [combine forallb fst snd] in E. destruct (pr c) eqn:Epr.
  - destruct (IH _ E) as (i & c0 & pr0 & H1 & H2 & H3). exists (S i), c0, pr0. auto.
  - exists 0, c, pr. auto.
Qed.

Lemma glob_layer_keep_matches : forall prefix progs complete e t,
  glob_layer prefix progs complete e t = Keep -> complete (join_path (prefix ++ e_path e)) = true.
Proof. intros prefix progs complete e t H. unfold glob_layer in H. apply zip_loop_keep in H as [H _]. exact H. Qed.

Definition opt_match (f : option (str -> bool)) (s : str) : bool := match f with Some g => g s | None => false end.

Lemma not_layer_verdict : forall prefix gw exh nonexh e t,
  not_layer prefix gw exh nonexh e t =
  if opt_match exh (join_path (presented prefix gw e t)) then VTree
  else if opt_match nonexh (join_path (presented prefix gw e t)) then VFile else Keep.
Proof. intros. unfold not_layer, opt_match. destruct exh, nonexh; reflexivity. Qed.

(* C03: a negation keeps exactly the filtrate that neither of its programs matches *)
Lemma not_layer_filtrate : forall ls prefix gw exh nonexh e,
  final_tag (ls ++ [not_layer prefix gw exh nonexh]) e = Filtrate <->
  final_tag ls e = Filtrate /\
  opt_match exh (join_path (presented prefix gw e Filtrate)) = false /\
  opt_match nonexh (join_path (presented prefix gw e Filtrate)) = false.
Proof.
  intros ls prefix gw exh nonexh e. rewrite final_tag_snoc.
  destruct (final_tag ls e) eqn:Et.
  - rewrite not_layer_verdict.
    destruct (opt_match exh _), (opt_match nonexh _); cbn [step_layer fst]; intuition discriminate.
  - split; [|intros [H _]; discriminate].
    destruct (not_layer prefix gw exh nonexh e RNode); cbn; discriminate.
  - split; [|intros [H _]; discriminate].
    destruct (not_layer prefix gw exh nonexh e RTree); cbn; discriminate.
Qed.

(* the common root of C02 and C03: a layer filters the walk: when its verdicts agree with a predicate on paths - it keeps only what the predicate
   accepts, discards as a file only what the predicate rejects, and discards as a tree only where the predicate rejects
   everything beneath - then adding it to a stack yields exactly what the stack yields and the predicate accepts;
   discarding whole trees loses nothing *)
Section FilterLayer.
Variable ls : list layer.
Variable l : layer.
Variable keep : rpath -> bool.
(* the paths the agreement is needed for (e.g. those made of valid names; `fun _ => True` for all) *)
Variable good : rpath -> Prop.
Hypothesis Hkeep : forall e t, l e t = Keep -> keep (e_path e) = true.
Hypothesis Hfile : forall e t, l e t = VFile -> keep (e_path e) = false.
Hypothesis Htree : forall e t r, good (e_path e ++ r) -> l e t = VTree -> keep (e_path e ++ r) = false.

Lemma shown_layer : forall mind d e, good (e_path e) ->
  yields (shown (ls ++ [l]) mind d e) = filter keep (yields (shown ls mind d e)).
Proof.
  intros mind d e Hg. unfold shown. destruct (Nat.ltb d mind); [reflexivity|].
  unfold yields. cbn [flat_map]. rewrite !app_nil_r, final_tag_snoc.
  destruct (final_tag ls e); [|destruct (l e _); reflexivity|destruct (l e _); reflexivity].
  cbn [filter]. destruct (l e Filtrate) eqn:Ev; cbn [step_layer fst].
  - rewrite (Hkeep _ _ Ev). reflexivity.
  - rewrite (Hfile _ _ Ev). reflexivity.
  - rewrite <- (app_nil_r (e_path e)) in Hg |- * at 1. rewrite (Htree _ _ _ Hg Ev). reflexivity.
Qed.

Theorem layer_filters : forall mind maxd n d p, (forall q, In q (all_entries p n) -> good q) ->
  yields (spec (ls ++ [l]) mind maxd d p n) = filter keep (yields (spec ls mind maxd d p n)).
Proof.
  intros mind maxd n. induction n as [|kids IH| |] using node_ind'; intros d p Hgood.
  - apply shown_layer, Hgood. left. reflexivity.
  - rewrite !spec_dir, !yields_app, filter_app. f_equal; [apply shown_layer, Hgood; left; reflexivity|].
    set (e := mkEntry p true). rewrite pruned_snoc.
    destruct (over maxd (S d)); [rewrite !orb_true_r; reflexivity|]. rewrite !orb_false_r.
    destruct (pruned ls mind d e); [reflexivity|]. cbn [orb].
    rewrite Forall_forall in IH.
    destruct (negb (Nat.ltb d mind) && match l e (final_tag ls e) with VTree => true | _ => false end) eqn:Ev.
    + (* the layer discards the tree: nothing beneath it is kept anyway *)
      symmetry. apply filter_all_false. intros q Hq.
      apply andb_prop in Ev as [_ Ev]. destruct (l e (final_tag ls e)) eqn:El; try discriminate.
      rewrite (flat_map_hom yields _ _ eq_refl yields_app) in Hq. apply in_flat_map in Hq as (k & Hk & Hq).
      apply spec_yields_entries, (all_entries_kid _ _ _ _ Hk) in Hq.
      destruct (all_entries_extend _ _ _ Hq) as [r ->]. apply (Htree e (final_tag ls e) r); [apply Hgood, Hq|exact El].
    + rewrite !(flat_map_hom yields _ _ eq_refl yields_app), (flat_map_hom (filter keep)) by (reflexivity || apply filter_app).
      apply flat_map_ext_Forall, Forall_forall. intros k Hk. apply (IH k Hk).
      intros q Hq. apply Hgood. exact (all_entries_kid _ _ _ _ Hk Hq).
  - rewrite !spec_direrr, !yields_app, !yields_error, !app_nil_r. apply shown_layer, Hgood. left. reflexivity.
  - reflexivity.
Qed.

End FilterLayer.

Section GlobWalk.
Variable prefix : rpath.
Variable progs : list (name -> bool).
Variable complete : str -> bool.
Variable good : rpath -> Prop.
(* pruning soundness: whatever the complete program accepts, every component program accepts at its own position *)
Hypothesis Hprune : forall rel, good rel -> complete (join_path rel) = true ->
  forall i c pr, nth_error rel i = Some c -> nth_error progs i = Some pr -> pr c = true.

Definition keeps (q : rpath) : bool :=
  complete (join_path (prefix ++ q)) && Nat.leb (length progs) (length (prefix ++ q)).

Lemma verdict_keep : forall e t, glob_layer prefix progs complete e t = Keep -> keeps (e_path e) = true.
Proof.
  intros e t Ev. unfold glob_layer in Ev. apply zip_loop_keep in Ev as [Ec El]. rewrite !skipn_length in El.
  unfold keeps. rewrite Ec. apply Nat.leb_le. rewrite app_length in *. lia.
Qed.

Lemma verdict_file : forall e t, glob_layer prefix progs complete e t = VFile -> keeps (e_path e) = false.
Proof.
  intros e t Ev. unfold glob_layer in Ev. unfold keeps. apply zip_loop_file in Ev as [Ev|Ev].
  - rewrite Ev. reflexivity.
  - rewrite !skipn_length in Ev. apply andb_false_iff. right. apply Nat.leb_gt. rewrite app_length in *. lia.
Qed.

Lemma verdict_tree : forall e t r, good (prefix ++ (e_path e ++ r)) ->
  glob_layer prefix progs complete e t = VTree -> keeps (e_path e ++ r) = false.
Proof.
  intros e t r Hg H. unfold glob_layer in H. apply zip_loop_tree in H as (i & c & pr & Hc & Hp & Hr).
  rewrite nth_error_skipn in Hc. rewrite nth_error_skipn in Hp. unfold keeps.
  destruct (complete (join_path (prefix ++ e_path e ++ r))) eqn:E; [|reflexivity].
  rewrite (Hprune _ Hg E (Nat.pred (length (e_path e)) + i) c pr) in Hr; [discriminate| |exact Hp].
  rewrite app_assoc. rewrite nth_error_app1; [exact Hc|]. apply nth_error_Some. rewrite Hc. discriminate.
Qed.

(* C02: the walk of a glob yields exactly the entries that the complete program matches (and that have at least as many
   components as there are component programs), each once, in pre-order; pruning never loses one *)
Theorem glob_walk_yields : forall n d p,
  (forall q, In q (all_entries p n) -> good (prefix ++ q)) ->
  yields (spec [glob_layer prefix progs complete] 0 None d p n) = filter keeps (all_entries p n).
Proof.
  intros n d p Hgood. rewrite <- (yields_plain n d p).
  exact (layer_filters [] (glob_layer prefix progs complete) keeps (fun q => good (prefix ++ q))
           verdict_keep verdict_file verdict_tree 0 None n d p Hgood).
Qed.

End GlobWalk.

Section NotWalk.
Variable ls : list layer.
Variables exh nonexh : option (str -> bool).
(* a negation over a walk whose entries present their own path (path walks, prefix-free glob walks) *)
Definition nl : layer := not_layer [] false exh nonexh.
Definition matched (q : rpath) : bool := opt_match exh (join_path q) || opt_match nonexh (join_path q).

Lemma nl_verdict : forall e t,
  nl e t = if opt_match exh (join_path (e_path e)) then VTree else if opt_match nonexh (join_path (e_path e)) then VFile else Keep.
Proof. intros e t. unfold nl. rewrite not_layer_verdict. destruct t; reflexivity. Qed.

Variable good : rpath -> Prop.
(* what the exhaustiveness verdict promises: beneath a path the exhaustive program matches, the negation matches everything *)
Hypothesis Hexh : forall p r, good (p ++ r) -> r <> [] -> opt_match exh (join_path p) = true -> matched (p ++ r) = true.

(* C03: `not` yields exactly the entries of the underlying walk that the negation does not match; discarding whole
   trees changes nothing, given what the exhaustiveness verdict promises *)
Theorem not_walk_yields : forall mind maxd n d p, (forall q, In q (all_entries p n) -> good q) ->
  yields (spec (ls ++ [nl]) mind maxd d p n) = filter (fun q => negb (matched q)) (yields (spec ls mind maxd d p n)).
Proof.
  apply (layer_filters ls nl (fun q => negb (matched q)) good); intros e t; rewrite nl_verdict; unfold matched.
  - destruct (opt_match exh _), (opt_match nonexh _); (discriminate || reflexivity).
  - destruct (opt_match exh _), (opt_match nonexh _); (discriminate || reflexivity).
  - intros r Hg. destruct (opt_match exh (join_path (e_path e))) eqn:Ex; [intros _|destruct (opt_match nonexh _); discriminate].
    apply negb_false_iff. destruct r as [|c r]; [rewrite app_nil_r, Ex; reflexivity|].
    apply Hexh; [exact Hg|discriminate|exact Ex].
Qed.

End NotWalk.
