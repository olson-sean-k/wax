(* ParseFuelFacts.v -- C05: the fuel of the parser model is adequate: [parse] never takes its out-of-fuel exit, for any
   string. Every successful token consumes at least one character; the nesting of the four mutually recursive parsers
   costs at most four units of fuel per character. *)
From WaxModel Require Import Base Parse Rule Glob.
From WaxProofs Require Import ParseRel SpanFacts.
Local Open Scope nat_scope.

Definition rest_len (i : input) : nat := length (i_s i).

Lemma adv_rest_len : forall i i', adv_rel i i' -> rest_len i' <= rest_len i.
Proof. intros i i' [mid [H _]]. unfold rest_len. rewrite H, app_length. lia. Qed.

Lemma adv_ne_rest_len : forall i i', adv_ne i i' -> rest_len i' < rest_len i.
Proof. intros i i' [mid [Hne [H _]]]. unfold rest_len. rewrite H, app_length. destruct mid; [congruence|cbn [length]; lia]. Qed.

Lemma adv1_rest_len : forall i c r, i_s i = c :: r -> S (rest_len (adv1 i c r)) = rest_len i.
Proof. intros i c r H. unfold rest_len. rewrite H. reflexivity. Qed.

Theorem grammar_fuel_adequate : forall f,
  (forall tm i, 4 * rest_len i + 1 <= f -> p_token f tm i <> PFuel) /\
  (forall tm i, 4 * rest_len i + 2 <= f -> p_tokens f tm i <> PFuel) /\
  (forall i, 4 * rest_len i + 4 <= f -> p_branches f i <> PFuel) /\
  (forall tm i, 4 * rest_len i + 3 <= f -> p_glob f tm i <> PFuel).
Proof.
  induction f as [|f [IHt [IHts [IHb IHg]]]]; [repeat split; intros; lia|]. split; [|split; [|split]].
  - intros tm i Hf H. pose proof (adv_rest_len _ _ (flags_with_state_rel i)) as HF.
    apply p_token_S_fuel in H. destruct H as [H|H].
    + apply rep_part_fuel in H. destruct H as [r [Hs H]]. pose proof (adv1_rest_len _ _ _ Hs). apply (IHg TermRep) in H; [exact H|lia].
    + apply alt_part_fuel in H. destruct H as [r [Hs H]]. pose proof (adv1_rest_len _ _ _ Hs). apply IHb in H; [exact H|lia].
  - intros tm i Hf. cbn [p_tokens]. destruct (p_token f tm i) as [[t i1]| |] eqn:Et; [|discriminate|exfalso; eapply IHt; [|exact Et]; lia].
    pose proof (adv_ne_rest_len _ _ (Rtoken_ne _ _ _ _ (proj1 (parser_sound f) _ _ _ _ Et))) as Hc.
    destruct (p_tokens f tm i1) as [[ts' i2]| |] eqn:Ets; try discriminate. exfalso. eapply IHts; [|exact Ets]. lia.
  - intros i Hf. rewrite p_branches_S. destruct (p_glob f TermAlt i) as [[b i1]| |] eqn:Eg; [|discriminate|exfalso; eapply IHg; [|exact Eg]; lia].
    pose proof (adv_rest_len _ _ (Rglob_adv _ _ _ _ (proj2 (proj2 (proj2 (parser_sound f))) _ _ _ _ Eg))) as Hl.
    destruct (head_eq c_comma (i_s i1)) as [[c r]|] eqn:Ec; [|discriminate]. apply head_eq_some in Ec. destruct Ec as [-> Ec].
    pose proof (adv1_rest_len _ _ _ Ec). destruct (p_branches f (adv1 i1 c_comma r)) as [[bs' i2]| |] eqn:Eb; try discriminate.
    exfalso. eapply IHb; [|exact Eb]. lia.
  - intros tm i Hf. cbn [p_glob]. destruct (p_tokens f tm (set_sub i)) as [[ts i1]| |] eqn:Ets; [|discriminate|].
    + destruct ts; [discriminate|]. destruct (term_ok tm i1); discriminate.
    + exfalso. eapply IHts; [|exact Ets]. unfold rest_len in *. cbn [set_sub i_s]. lia.
Qed.

(* C05: the parser model never runs out of fuel *)
Theorem parse_never_out_of_fuel : forall e, parse e <> ParseFuel.
Proof.
  intros e. unfold parse. destruct e as [|c e]; [discriminate|].
  pose proof (proj1 (proj2 (grammar_fuel_adequate (parse_fuel (c :: e)))) TermTop (set_sub (init_input (c :: e)))) as H.
  destruct (p_tokens (parse_fuel (c :: e)) TermTop (set_sub (init_input (c :: e)))) as [[ts i1]| |]; [|discriminate|].
  - destruct ts; [discriminate|]. destruct (i_s i1); discriminate.
  - exfalso. apply H; [|reflexivity]. unfold parse_fuel, rest_len. cbn [set_sub init_input i_s]. lia.
Qed.

Theorem build_never_out_of_fuel : forall e, build e <> BuildFuel.
Proof.
  intros e. unfold build. pose proof (parse_never_out_of_fuel e) as H. destruct (parse e); [|discriminate|congruence].
  destruct (check t) as [[[k sp]|]|]; try discriminate. destruct (compile_ok (Encode.encode t)); discriminate.
Qed.
