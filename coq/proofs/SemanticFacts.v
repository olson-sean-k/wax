(* SemanticFacts.v -- C12: the breadth-first search for semantic literals (`.` and `..` components) reaches every nested
   component of the expression (`has_sem` says what is sought, `semantic_literals_found` that it is found). *)
From WaxModel Require Import Base Token Query.
From WaxProofs Require Import FuelFacts.
Local Open Scope nat_scope.

Definition qsize (q : list (list tok)) : nat := fold_right (fun c a => csize c + a) 0 q.

Lemma qsize_cons : forall c q, qsize (c :: q) = csize c + qsize q.
Proof. reflexivity. Qed.

Lemma qsize_app : forall a b, qsize (a ++ b) = qsize a + qsize b.
Proof. induction a as [|c a IH]; intros b; [reflexivity|]. cbn [app]. rewrite !qsize_cons, IH. lia. Qed.

Lemma take_nonboundary_size : forall ts a b, take_nonboundary ts = (a, b) -> csize a + csize b = csize ts.
Proof.
  induction ts as [|t ts IH]; intros a b H; cbn [take_nonboundary] in H.
  - inversion H; subst. reflexivity.
  - destruct (is_boundary t).
    + inversion H; subst. reflexivity.
    + destruct (take_nonboundary ts) as [a' b'] eqn:E. inversion H; subst. specialize (IH _ _ eq_refl).
      rewrite !csize_cons. lia.
Qed.

Lemma components_f_size : forall f ts, qsize (components_f f ts) <= csize ts.
Proof.
  induction f as [|f IH]; intros ts; cbn [components_f]; [cbn; lia|].
  destruct ts as [|t r]; [cbn; lia|]. rewrite csize_cons.
  destruct (is_sep t); [specialize (IH r); lia|].
  destruct (is_tree t).
  - rewrite qsize_cons. specialize (IH r). cbn [csize fold_right]. lia.
  - destruct (take_nonboundary r) as [a b] eqn:E. rewrite qsize_cons, csize_cons.
    pose proof (take_nonboundary_size _ _ _ E). specialize (IH b). lia.
Qed.

Lemma components_f_nonempty : forall f ts, Forall (fun c => c <> []) (components_f f ts).
Proof.
  induction f as [|f IH]; intros ts; cbn [components_f]; [constructor|].
  destruct ts as [|t r]; [constructor|]. destruct (is_sep t); [apply IH|]. destruct (is_tree t).
  - constructor; [discriminate|apply IH].
  - destruct (take_nonboundary r) as [a b]. constructor; [discriminate|apply IH].
Qed.

Lemma components_size : forall ts, qsize (components ts) <= csize ts.
Proof. intros. apply components_f_size. Qed.
Lemma components_nonempty : forall ts, Forall (fun c => c <> []) (components ts).
Proof. intros. apply components_f_nonempty. Qed.

(* what the search looks for: a component, at any nesting depth, that is spelled entirely with literals whose text is `.` or `..` *)
Inductive has_sem : list (list tok) -> Prop :=
| hs_here : forall c q s, In c q -> component_literal c = Some s -> is_semantic s = true -> has_sem q
| hs_deeper : forall c q t, In c q -> component_literal c = None -> In t c -> is_branch t = true ->
    has_sem (components (children t)) -> has_sem q.

Lemma has_sem_incl : forall q q', has_sem q -> incl q q' -> has_sem q'.
Proof.
  intros q q' H Hi. destruct H as [c q0 s Hin Hl Hs|c q0 t Hin Hl Ht Hb Hd].
  - eapply hs_here; [apply Hi; exact Hin|exact Hl|exact Hs].
  - eapply hs_deeper; [apply Hi; exact Hin|exact Hl|exact Ht|exact Hb|exact Hd].
Qed.

Definition expand_comp (c : list tok) : list (list tok) :=
  flat_map (fun t => if is_branch t then components (children t) else []) c.

(* every token of a component contributes strictly less to the queue than it weighs *)
Lemma expand_size : forall c, qsize (expand_comp c) + length c <= csize c.
Proof.
  induction c as [|t c IH]; [cbn; lia|]. unfold expand_comp in *. cbn [flat_map length]. rewrite qsize_app, csize_cons.
  destruct (is_branch t).
  - pose proof (components_size (children t)). pose proof (csize_children t). lia.
  - pose proof (tsize_pos t). cbn [qsize fold_right]. lia.
Qed.

Lemma expand_nonempty : forall c, Forall (fun x => x <> []) (expand_comp c).
Proof.
  induction c as [|t c IH]; [constructor|]. unfold expand_comp in *. cbn [flat_map]. apply Forall_app. split; [|exact IH].
  destruct (is_branch t); [apply components_nonempty|constructor].
Qed.

Lemma has_sem_step : forall c rest, has_sem (c :: rest) ->
  match component_literal c with
  | Some s => is_semantic s = true \/ has_sem rest
  | None => has_sem (rest ++ expand_comp c)
  end.
Proof.
  intros c rest Hs. inversion Hs as [c0 q0 s0 Hin Hl Hs0|c0 q0 t Hin Hl Ht Hb Hd]; subst; destruct Hin as [<-|Hin].
  - rewrite Hl. left. exact Hs0.
  - destruct (component_literal c); [right|]; eapply hs_here; eauto using in_or_app.
  - rewrite Hl. eapply has_sem_incl; [exact Hd|]. intros x Hx. apply in_or_app. right. apply in_flat_map.
    exists t. split; [exact Ht|]. rewrite Hb. exact Hx.
  - destruct (component_literal c); [right|]; eapply hs_deeper; eauto using in_or_app.
Qed.

Lemma semantic_loop_complete : forall fuel q,
  Forall (fun c => c <> []) q -> qsize q < fuel -> has_sem q -> semantic_loop fuel q = true.
Proof.
  induction fuel as [|f IH]; intros q Hne Hf Hs; [lia|]. cbn [semantic_loop].
  destruct q as [|c rest]; [inversion Hs as [? ? ? Hin|? ? ? Hin]; contradiction|].
  inversion Hne as [|? ? Hc Hrest]; subst. rewrite qsize_cons in Hf.
  apply has_sem_step in Hs. destruct (component_literal c) as [s|].
  - destruct Hs as [->|Hs]; [reflexivity|]. destruct (is_semantic s); [reflexivity|]. cbn [orb].
    pose proof (csize_nonempty c Hc). apply IH; [exact Hrest|lia|exact Hs].
  - fold (expand_comp c). apply IH; [apply Forall_app; split; [exact Hrest|apply expand_nonempty]| |exact Hs].
    rewrite qsize_app. pose proof (expand_size c). destruct c; [congruence|]. cbn [length] in *. lia.
Qed.

(* C12: a glob reports semantic literals whenever some component of the expression, at any nesting depth, is spelled
   entirely as the literal `.` or `..` *)
Theorem semantic_literals_found : forall t, has_sem (components (concatenation t)) -> has_semantic_literals t = true.
Proof.
  intros t H. unfold has_semantic_literals. apply semantic_loop_complete; [apply components_nonempty| |exact H].
  pose proof (components_size (concatenation t)). pose proof (csize_concatenation t). lia.
Qed.
