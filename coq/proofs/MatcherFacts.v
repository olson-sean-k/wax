(* MatcherFacts.v -- the executable matching engine of the model ([Regex.m]: backtracking, continuation passing, fuelled)
   decides the language [sem]: with the fuel [need] it is complete (here); it is sound, and what it records in capture
   groups is stated with its soundness (CaptureFacts, where [accepts_spec] joins the two).  The correspondence check runs
   this engine against the implementation, so what it validates is [sem] itself - the language the theorems are about. *)
From Coq Require Import Arith.
From WaxModel Require Import Base Regex.
From WaxProofs Require Import RuleFacts.
Local Open Scope nat_scope.

Section Matcher.
Variable orbit : char -> list char.
Notation sem := (sem orbit).
Notation m := (m orbit).
Notation lit_match := (lit_match orbit).

Lemma lit_match_sound : forall ci s w w', lit_match ci s w = Some w' -> exists u, w = u ++ w' /\ lit_sem orbit ci s u.
Proof.
  induction s as [|c s IH]; intros w w' H; cbn [Regex.lit_match] in H.
  - inversion H; subst. exists []. split; [reflexivity|constructor].
  - destruct w as [|d w]; [discriminate|]. destruct (lit_char_match orbit ci c d) eqn:E; [|discriminate].
    destruct (IH _ _ H) as [u [-> Hu]]. exists (d :: u). split; [reflexivity|]. constructor; assumption.
Qed.

Lemma lit_match_complete : forall ci s u v, lit_sem orbit ci s u -> lit_match ci s (u ++ v) = Some v.
Proof.
  intros ci s u v H. induction H as [|c d s w Hm _ IH]; [destruct v; reflexivity|]. cbn [app Regex.lit_match]. rewrite Hm. exact IH.
Qed.

Lemma suffixes_spec : forall w v, In v (suffixes w) <-> exists u, w = u ++ v.
Proof.
  induction w as [|c w IH]; intros v; cbn [suffixes].
  - split; [intros [<-|[]]; exists []; reflexivity|intros [u H]; left; destruct u; [cbn in H; congruence|discriminate]].
  - split.
    + intros [<-|H]; [exists []; reflexivity|]. apply IH in H. destruct H as [u ->]. exists (c :: u). reflexivity.
    + intros [[|d u] H]; [left; cbn in H; congruence|]. right. apply IH. cbn in H. inversion H; subst. exists u. reflexivity.
Qed.

Lemma first_some_complete : forall {A B} (f : A -> option B) l a, In a l -> f a <> None -> first_some f l <> None.
Proof.
  intros A B f l a Hin Hf H. apply first_some_l_none in H. rewrite Forall_forall in H. exact (Hf (H a Hin)).
Qed.

Lemma need_mono : forall r n n', n <= n' -> need r n <= need r n'.
Proof.
  induction r; intros n n' H; cbn [need]; try lia;
    repeat match goal with IH : forall n n', n <= n' -> need ?r n <= need ?r n' |- _ => pose proof (IH n n' H); clear IH end; lia.
Qed.

Lemma need_pos : forall r n, 1 <= need r n.
Proof. destruct r; intros; cbn [need]; lia. Qed.

(* One round of a repetition of which [lo] iterations are still required, as the engine takes it: it stops only when none is
   required; otherwise a first iteration, then the others.  An iteration that is not required and matches the empty text is
   skipped, so a round lowers [lo] or shortens the text: this is the fuel [need] provides for. *)
Lemma iter_round : forall (L : str -> Prop) lo n u, iter_sem L n u -> lo <= n ->
  (lo = 0 /\ u = []) \/
  exists u1 u2 n', u = u1 ++ u2 /\ L u1 /\ iter_sem L n' u2 /\ n' < n /\ lo - 1 <= n' /\ 0 < lo + length u1.
Proof.
  intros L lo n u H Hlo. destruct lo as [|lo].
  - clear Hlo. induction H as [|n u v Hu Hv IH]; [left; split; reflexivity|]. destruct u as [|c u].
    + destruct IH as [IH|[u1 [u2 [n' [-> [H1 [H2 [Hlt Hpos]]]]]]]]; [left; exact IH|].
      right. exists u1, u2, n'. repeat split; try assumption; lia.
    + right. exists (c :: u), v, n. cbn [length]. repeat split; try assumption; lia.
  - destruct H as [|n u v Hu Hv]; [lia|]. right. exists u, v, n. repeat split; try assumption; lia.
Qed.

Lemma orelse_ne : forall {A} (a b : option A), a <> None \/ b <> None -> match a with Some y => Some y | None => b end <> None.
Proof. intros A [y|] b [H|H]; try discriminate; congruence. Qed.

Lemma orelse_some : forall {A} (a b : option A) x, match a with Some y => Some y | None => b end = Some x -> a = Some x \/ b = Some x.
Proof. intros A [y|] b x H; [left|right]; exact H. Qed.

(* By induction on the fuel: what the engine calls on next is a sub-expression on the same text or, in a loop, the loop
   itself after one round, and [need] is lower for either. *)
Theorem m_complete : forall fuel total r g w u v c k,
  w = u ++ v -> sem r u -> (forall c', k v c' <> None) -> need r (length w) <= fuel -> m total fuel r g w c k <> None.
Proof.
  induction fuel as [|f IH]; intros total r g w u v c k Hw Hs Hk Hf; [pose proof (need_pos r (length w)); lia|].
  (* [a] on a first part [u1] of the text, then [r'] on the rest in the continuation, behind a test; of the rest, the test
     and the fuel see the length only *)
  assert (Hstep : forall a r' g' (test : str -> bool) u1 u2, w = (u1 ++ u2) ++ v -> sem a u1 -> sem r' u2 -> need a (length w) <= f ->
            (forall w', length w = length u1 + length w' -> test w' = true /\ need r' (length w') <= f) ->
            m total f a g w c (fun w' c' => if test w' then m total f r' g' w' c' k else None) <> None).
  { intros a r' g' test u1 u2 E H1 H2 Hfa Hrest. rewrite <- app_assoc in E.
    destruct (Hrest (u2 ++ v)) as [Ht Hfr]; [rewrite E; apply app_length|].
    apply (IH total a g w u1 (u2 ++ v) c _ E H1); [|exact Hfa].
    intros c'. rewrite Ht. apply (IH total r' g' _ u2 v); [reflexivity|exact H2|exact Hk|exact Hfr]. }
  cbn [Regex.m]. destruct r as [ci s| | |neg a| | | |a b|a b|a|lz a|a lo hi|cap a]; cbn [Regex.sem need] in *.
  - subst w. rewrite (lit_match_complete ci s u v Hs). apply Hk.
  - subst. cbn [app]. rewrite N.eqb_refl. apply Hk.
  - destruct Hs as [d [-> Hd]]. subst w. cbn [app]. apply N.eqb_neq in Hd. rewrite Hd. apply Hk.
  - destruct Hs as [d [-> Hd]]. subst w. cbn [app]. rewrite Hd. apply Hk.
  - contradiction.
  - apply (first_some_complete _ _ v); [|apply Hk]. apply -> in_rev. apply suffixes_spec. exists u. exact Hw.
  - subst u w. apply Hk.
  - destruct Hs as [u1 [u2 [-> [H1 H2]]]]. apply (Hstep a b _ (fun _ => true) u1 u2 Hw H1 H2); [lia|].
    intros w' Hl. split; [reflexivity|]. pose proof (need_mono b (length w') (length w)). lia.
  - apply orelse_ne. destruct Hs as [Ha|Hb].
    + left. apply (IH total a g w u v c k Hw Ha Hk). lia.
    + right. apply (IH total b _ w u v c k Hw Hb Hk). lia.
  - apply orelse_ne. destruct Hs as [->|Ha].
    + right. cbn [app] in Hw. subst w. apply Hk.
    + left. apply (IH total a g w u v c k Hw Ha Hk). lia.
  - (* star: a repetition that requires no iteration *)
    destruct Hs as [n Hn]. apply (iter_round _ 0) in Hn; [|lia].
    destruct Hn as [[_ ->]|[u1 [u2 [n' [-> [H1 [H2 [_ [_ Hpos]]]]]]]]].
    + cbn [app] in Hw. subst w. destruct lz; apply orelse_ne; [left|right]; apply Hk.
    + assert (Hmore : m total f a g w c (fun w' c' => if Nat.ltb (length w') (length w) then m total f (RStar lz a) g w' c' k else None) <> None).
      { apply (Hstep a (RStar lz a) g _ u1 u2 Hw H1); [exists n'; exact H2|lia|].
        intros w' Hl. pose proof (need_mono a (length w') (length w)). split; [apply Nat.ltb_lt; lia|cbn [need]; lia]. }
      destruct lz; apply orelse_ne; [right|left]; exact Hmore.
  - destruct Hs as [n [[Hlo Hhi] Hn]]. apply (iter_round _ (N.to_nat lo)) in Hn; [|lia]. apply orelse_ne.
    destruct Hn as [[Hlo0 ->]|[u1 [u2 [n' [-> [H1 [H2 [Hlt [Hlo' Hpos]]]]]]]]].
    + right. replace lo with 0%N by lia. cbn [app] in Hw. subst w. apply Hk.
    + left. assert (Hcm : match hi with Some h => (0 <? h)%N | None => true end = true).
      { destruct hi as [h|]; [|reflexivity]. apply N.ltb_lt. lia. }
      rewrite Hcm. apply (Hstep a (RRep a _ _) g (fun w' => Nat.ltb (length w') (length w) || negb (lo =? 0)%N) u1 u2 Hw H1); [|lia|].
      * exists n'. split; [|exact H2]. split; [lia|]. destruct hi as [h|]; [lia|exact I].
      * intros w' Hl. pose proof (need_mono a (length w') (length w)). split; [|cbn [need]; lia].
        destruct (N.eqb_spec lo 0) as [->|_]; [|apply orb_true_r]. rewrite orb_false_r. apply Nat.ltb_lt. cbn in Hpos. lia.
  - destruct cap.
    + apply (IH total a (S g) w u v c _ Hw Hs); [|lia]. intros c'. apply Hk.
    + apply (IH total a g w u v c k Hw Hs Hk). lia.
Qed.

End Matcher.
