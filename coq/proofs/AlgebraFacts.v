(* AlgebraFacts.v -- the validity predicates that the statements about the variance algebra and about fold_map assume:
   [bvr_ok] of a bounded range (C05), [bounds_ok] of the bounds of a repetition and [tok_bounds_ok] of a tree (C19), with
   the latter by the form of the tree; [Forall_mp]. *)
From WaxModel Require Import Base Token Variance.

(* the invariants of BoundedVariantRange: its fields are NonZeroUsize *)
Definition bvr_ok (r : bvr) : Prop :=
  match r with
  | BLower n => 0 < n
  | BUpper n => 0 < n
  | BBoth lo ext => 0 < lo /\ 0 < ext
  end.

(* the bounds of a repetition as the parser and the rules leave them: below 2^64 and ordered.  [lo < usize_max1] mirrors the
   type usize of the lower bound; the round trip through NaturalRange (OwnedFacts.rep_roundtrip_id) needs the clause on [hi] only *)
Definition bounds_ok (lo : N) (hi : option N) : Prop :=
  lo < usize_max1 /\ match hi with Some h => lo <= h /\ h < usize_max1 | None => True end.

Fixpoint tok_bounds_ok (t : tok) : Prop :=
  match t with
  | TLeaf _ _ => True
  | TAlt _ bs => (fix go (l : list tok) : Prop := match l with [] => True | x :: l' => tok_bounds_ok x /\ go l' end) bs
  | TCat _ ts => (fix go (l : list tok) : Prop := match l with [] => True | x :: l' => tok_bounds_ok x /\ go l' end) ts
  | TRep _ b lo hi => tok_bounds_ok b /\ bounds_ok lo hi
  end.

Lemma tok_bounds_ok_list : forall l,
  (fix go (l : list tok) : Prop := match l with [] => True | x :: l' => tok_bounds_ok x /\ go l' end) l <-> Forall tok_bounds_ok l.
Proof.
  induction l as [|x l IH]; [split; [constructor|trivial]|]. rewrite Forall_cons_iff, <- IH. reflexivity.
Qed.

Lemma tok_bounds_ok_alt : forall sp bs, tok_bounds_ok (TAlt sp bs) <-> Forall tok_bounds_ok bs.
Proof. intros sp bs. apply tok_bounds_ok_list. Qed.

Lemma tok_bounds_ok_cat : forall sp ts, tok_bounds_ok (TCat sp ts) <-> Forall tok_bounds_ok ts.
Proof. intros sp ts. apply tok_bounds_ok_list. Qed.

Lemma tok_bounds_ok_rep : forall sp b lo hi, tok_bounds_ok (TRep sp b lo hi) <-> tok_bounds_ok b /\ bounds_ok lo hi.
Proof. reflexivity. Qed.

Lemma Forall_mp : forall {A} (P Q : A -> Prop) l, Forall (fun a => P a -> Q a) l -> Forall P l -> Forall Q l.
Proof.
  intros A P Q l H HP. induction H as [|a l Ha _ IH]; [constructor|]. inversion HP; subst.
  constructor; [apply Ha; assumption|apply IH; assumption].
Qed.
