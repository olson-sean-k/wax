(* ParseRel.v -- the grammar of Parse.v as a derivation relation.  [p_token] is cut into its alternatives; the four mutually
   recursive parsers are sound for the relation by one induction over their fuel ([parser_sound]).  Whatever holds of every successful
   parse is then proved by induction over derivations: no fuel, no failing alternatives, no [PFuel]/[PErr] cases. *)
From Coq Require Import Arith.
From WaxModel Require Import Base Token Parse Encode Rule Glob.

(* tag(k) as the grammar writes it inline: the head and the rest, when the head is [k] *)
Definition head_eq (k : char) (s : str) : option (char * str) :=
  match s with c :: r => if c =? k then Some (c, r) else None | [] => None end.

Lemma head_eq_some : forall k s c r, head_eq k s = Some (c, r) -> c = k /\ s = k :: r.
Proof.
  intros k [|c0 r0] c r H; [discriminate|]. unfold head_eq in H.
  destruct (N.eqb_spec c0 k) as [->|]; [|discriminate]. inversion H; subst. split; reflexivity.
Qed.

(* the graph of [lit_chars], as an induction principle (the function skips two characters at an escape) *)
Lemma lit_chars_ind : forall P : str -> str -> str -> Prop,
  P [] [] [] ->
  (forall c s, (c =? BSLASH) = false -> mem c LIT_SPECIAL = true -> P (c :: s) [] (c :: s)) ->
  (forall d s t rest, mem d LIT_ESCAPABLE = true -> P s t rest -> P (BSLASH :: d :: s) (d :: t) rest) ->
  (forall c s t rest, (c =? BSLASH) = false -> mem c LIT_SPECIAL = false -> P s t rest -> P (c :: s) (c :: t) rest) ->
  forall s t rest, lit_chars s = Some (t, rest) -> P s t rest.
Proof.
  intros P Hnil Hstop Hesc Hchar s.
  assert (G : forall n s, (length s <= n)%nat -> forall t rest, lit_chars s = Some (t, rest) -> P s t rest).
  { induction n as [|n IH]; intros [|c s'] Hn t rest H; cbn [length] in Hn; try lia;
      try (cbn in H; inversion H; subst; exact Hnil).
    cbn [lit_chars] in H. destruct (N.eqb_spec c BSLASH) as [->|Hc].
    - destruct s' as [|d s'']; [discriminate|]. destruct (mem d LIT_ESCAPABLE) eqn:Ed; [|discriminate].
      destruct (lit_chars s'') as [[t' rest']|] eqn:E; [|discriminate]. inversion H; subst.
      apply Hesc; [exact Ed|]. apply IH; [cbn [length] in Hn; lia|exact E].
    - apply N.eqb_neq in Hc. destruct (mem c LIT_SPECIAL) eqn:Es; [inversion H; subst; apply Hstop; assumption|].
      destruct (lit_chars s') as [[t' rest']|] eqn:E; [|discriminate]. inversion H; subst.
      apply Hchar; [exact Hc|exact Es|]. apply IH; [lia|exact E]. }
  apply (G (length s)). lia.
Qed.

Lemma p_literal_inv : forall i l i', p_literal i = Some (l, i') ->
  exists text rest, lit_chars (i_s i) = Some (text, rest) /\ text <> [] /\
                    l = LLit (i_ci i) text /\ i' = adv i (consumed_of (i_s i) rest) rest.
Proof.
  intros i l i' H. unfold p_literal in H. destruct (lit_chars (i_s i)) as [[text rest]|]; [|discriminate].
  destruct text as [|c text]; [discriminate|]. inversion H; subst. exists (c :: text), rest. repeat split. discriminate.
Qed.

Lemma consumed_of_app : forall c rest, consumed_of (c ++ rest) rest = c.
Proof.
  intros c rest. unfold consumed_of. rewrite app_length. replace (length c + length rest - length rest)%nat with (length c) by lia.
  rewrite firstn_app, Nat.sub_diag, firstn_all. cbn. apply app_nil_r.
Qed.

Lemma class_char_suffix : forall s a r, class_char s = Some (a, r) -> exists c, s = c ++ r.
Proof.
  intros s a r H. unfold class_char in H. destruct s as [|c s]; [discriminate|]. destruct (c =? BSLASH).
  - destruct s as [|d s']; [discriminate|]. destruct (mem d CLASS_ESCAPABLE); [|discriminate]. inversion H; subst. exists [c; a]. reflexivity.
  - destruct (mem c CLASS_SPECIAL); [discriminate|]. inversion H; subst. exists [a]. reflexivity.
Qed.

Lemma class_arch_suffix : forall s a r, class_arch s = Some (a, r) -> exists c, s = c ++ r.
Proof.
  intros s a r H. unfold class_arch in H. destruct (class_char s) as [[x r0]|] eqn:E; [|discriminate].
  destruct (class_char_suffix _ _ _ E) as [c0 ->].
  destruct r0 as [|c r1]; [inversion H; subst; exists c0; reflexivity|].
  destruct (c =? c_minus); [|inversion H; subst; exists c0; reflexivity].
  destruct (class_char r1) as [[b r2]|] eqn:E2; [|inversion H; subst; exists c0; reflexivity].
  inversion H; subst. destruct (class_char_suffix _ _ _ E2) as [c1 ->]. exists (c0 ++ c :: c1). rewrite <- app_assoc. reflexivity.
Qed.

Lemma class_archs_suffix : forall fuel s l r, class_archs fuel s = (l, r) -> exists c, s = c ++ r.
Proof.
  induction fuel as [|f IH]; intros s l r H; cbn [class_archs] in H.
  - inversion H; subst. exists []. reflexivity.
  - destruct (class_arch s) as [[a r0]|] eqn:E; [|inversion H; subst; exists []; reflexivity].
    destruct (class_archs f r0) as [l' r'] eqn:E2. inversion H; subst.
    destruct (class_arch_suffix _ _ _ E) as [c0 ->]. destruct (IH _ _ _ E2) as [c1 ->].
    exists (c0 ++ c1). rewrite <- app_assoc. reflexivity.
Qed.

Lemma p_class_inv : forall i l i', p_class i = Some (l, i') ->
  exists neg archs c, l = LClass neg archs /\ c <> [] /\ i_s i = c ++ i_s i' /\ i' = adv i c (i_s i').
Proof.
  intros i l i' H. unfold p_class in H. destruct (i_s i) as [|c r] eqn:E; [discriminate|].
  destruct (c =? c_lbrack); [|discriminate].
  set (nr := match r with c2 :: r' => if c2 =? c_bang then (true, r') else (false, r) | [] => (false, r) end) in H.
  assert (Hr : exists c0, r = c0 ++ snd nr).
  { subst nr. destruct r as [|c2 r']; [exists []; reflexivity|]. destruct (c2 =? c_bang); [exists [c2]; reflexivity|exists []; reflexivity]. }
  destruct nr as [neg r1]. cbn [snd] in Hr. destruct Hr as [c0 ->].
  destruct (class_archs (length r1) r1) as [archs r2] eqn:Ea. destruct (class_archs_suffix _ _ _ _ Ea) as [c1 ->].
  destruct archs as [|a archs]; [discriminate|]. destruct r2 as [|c3 r3]; [discriminate|].
  destruct (c3 =? c_rbrack); [|discriminate]. inversion H; subst. clear H.
  assert (Hs : c :: c0 ++ c1 ++ c3 :: r3 = (c :: c0 ++ c1 ++ [c3]) ++ r3).
  { cbn [app]. f_equal. rewrite <- !app_assoc. reflexivity. }
  exists neg, (a :: archs), (c :: c0 ++ c1 ++ [c3]). cbn [adv i_s]. rewrite Hs, consumed_of_app.
  split; [reflexivity|]. split; [discriminate|]. split; reflexivity.
Qed.

Lemma flags_head : forall i, flags_with_state i = i \/ exists r, i_s i = c_lparen :: r.
Proof.
  intros i. unfold flags_with_state. destruct (length (i_s i)) as [|n]; [left; reflexivity|]. cbn [flags_with_state_f].
  unfold flag_group. destruct (i_s i) as [|c1 [|c2 r]] eqn:E; try (left; reflexivity).
  destruct (N.eqb_spec c1 c_lparen) as [->|Hne]; [right; eexists; reflexivity|]. cbn [andb]. left. reflexivity.
Qed.

(* how a tree wildcard begins: at a `/`, which makes it rooted, or at the start of a component; flags may follow *)
Definition tree_start (i : input) (root : bool) (i1 : input) : Prop :=
  (exists r, i_s i = SEP :: r /\ root = true /\ i1 = flags_with_state (adv1 i SEP r)) \/
  (i_sub i = i_pos i /\ root = false /\ i1 = flags_with_state i).

Lemma p_wildcard_inv : forall tm i l i', p_wildcard tm i = Some (l, i') ->
  (exists r, i_s i = c_qmark :: r /\ l = LOne /\ i' = adv1 i c_qmark r) \/
  (exists root i1 r, tree_start i root i1 /\ i_s i1 = c_star :: c_star :: r /\ l = LTree root /\
     let i2 := adv1 (adv1 i1 c_star (c_star :: r)) c_star r in
     (term_ok tm i2 = true /\ i' = i2) \/ (exists r3, i_s (flags_with_state i2) = SEP :: r3 /\ i' = adv1 (flags_with_state i2) SEP r3)) \/
  (exists c r, i_s i = c :: r /\ (c = c_star /\ l = LZom false \/ c = c_dollar /\ l = LZom true) /\ i' = adv1 i c r /\
     (zom_lookahead i' = true \/ term_ok tm i' = true)).
Proof.
  intros tm i l i' H. unfold p_wildcard in H. cbv zeta in H.
  destruct (match i_s i with d :: _ => d =? c_qmark | [] => false end) eqn:Eq.
  { left. destruct (i_s i) as [|c r]; [discriminate|]. apply N.eqb_eq in Eq. subst c. inversion H; subst. exists r. repeat split. }
  right. clear Eq.
  match type of H with (match ?T with Some x => Some x | None => _ end) = _ => destruct T as [x|] eqn:Et end.
  - left. inversion H; subst x. clear H.
    match type of Et with (match ?P with _ => _ end) = _ => destruct P as [[root i1]|] eqn:Ep; [|discriminate] end.
    assert (Hp : tree_start i root i1).
    { assert (Hu : (if i_sub i =? i_pos i then Some (false, flags_with_state i) else None) = Some (root, i1) -> tree_start i root i1).
      { intros Hx. destruct (N.eqb_spec (i_sub i) (i_pos i)) as [E|]; [|discriminate]. inversion Hx; subst. right. repeat split. exact E. }
      destruct (i_s i) as [|c r] eqn:E; [exact (Hu Ep)|]. destruct (N.eqb_spec c SEP) as [->|]; [|exact (Hu Ep)].
      inversion Ep; subst. left. exists r. split; [exact E|split; reflexivity]. }
    destruct (i_s i1) as [|c1 [|c2 r]] eqn:E1; try discriminate.
    destruct (N.eqb_spec c1 c_star) as [->|]; [|discriminate]. destruct (N.eqb_spec c2 c_star) as [->|]; [|discriminate]. cbn [andb] in Et.
    exists root, i1, r. split; [exact Hp|]. split; [exact E1|]. cbv zeta.
    set (i2 := adv1 (adv1 i1 _ _) _ r) in *.
    assert (Hend : (if term_ok tm i2 then Some (LTree root, i2) else None) = Some (l, i') -> l = LTree root /\ term_ok tm i2 = true /\ i' = i2).
    { intros Hx. destruct (term_ok tm i2); [|discriminate]. inversion Hx; subst. repeat split. }
    destruct (i_s (flags_with_state i2)) as [|c3 r3]; [destruct (Hend Et) as [-> Hx]; split; [reflexivity|left; exact Hx]|].
    destruct (N.eqb_spec c3 SEP) as [->|]; [|destruct (Hend Et) as [-> Hx]; split; [reflexivity|left; exact Hx]].
    inversion Et; subst. split; [reflexivity|]. right. exists r3. split; reflexivity.
  - right. destruct (i_s i) as [|c r] eqn:E; [discriminate|]. exists c, r. split; [reflexivity|].
    assert (Hz : forall lz, (if zom_lookahead (adv1 i c r) || term_ok tm (adv1 i c r) then Some (LZom lz, adv1 i c r) else None) = Some (l, i') ->
                 l = LZom lz /\ i' = adv1 i c r /\ (zom_lookahead i' = true \/ term_ok tm i' = true)).
    { intros lz Hx. destruct (zom_lookahead (adv1 i c r) || term_ok tm (adv1 i c r)) eqn:El; [|discriminate]. inversion Hx; subst.
      split; [reflexivity|]. split; [reflexivity|]. apply orb_prop. exact El. }
    destruct (N.eqb_spec c c_star) as [->|]; [destruct (Hz false H) as [-> Hx]; split; [left; split; reflexivity|exact Hx]|].
    destruct (N.eqb_spec c c_dollar) as [->|]; [|discriminate]. destruct (Hz true H) as [-> Hx]. split; [right; split; reflexivity|exact Hx].
Qed.

Lemma digits_suffix : forall s d r, digits s = (d, r) -> s = d ++ r.
Proof.
  induction s as [|c s IH]; intros d r H; cbn [digits] in H.
  - inversion H; subst. reflexivity.
  - destruct (is_digit c).
    + destruct (digits s) as [d' r'] eqn:E. inversion H; subst. rewrite (IH _ _ eq_refl). reflexivity.
    + inversion H; subst. reflexivity.
Qed.

(* what [p_bounds] reads after the `:`: no digits, or a lower bound that overflows (the bounds are then 1 and none, and nothing more
   is consumed); or the digits [d] of the lower bound, alone (it is the upper bound too) or followed by `,` and the digits of an
   upper bound or none.  [c] is all that is consumed. *)
Definition bounds_tail (i : input) (r : str) (lo : N) (hi : option N) (i' : input) : Prop :=
  (lo = 1 /\ hi = None /\ i' = adv1 i c_colon r) \/
  exists d c, parse_usize d = Some lo /\ (hi = None \/ exists d2 h, parse_usize d2 = Some h /\ hi = Some h) /\
              r = c ++ i_s i' /\ i' = adv (adv1 i c_colon r) c (i_s i').

Lemma p_bounds_inv : forall i lo hi i', p_bounds i = ((lo, hi), i') ->
  (lo = 0 /\ hi = None /\ i' = i) \/ exists r, i_s i = c_colon :: r /\ bounds_tail i r lo hi i'.
Proof.
  intros i lo hi i' H. unfold p_bounds in H. destruct (i_s i) as [|c r]; [left; inversion H; repeat split|].
  destruct (N.eqb_spec c c_colon) as [->|]; [right; exists r; split; [reflexivity|]|left; inversion H; repeat split].
  destruct (digits r) as [d1 r1] eqn:Ed. apply digits_suffix in Ed.
  (* the fallback of the grammar's alt: the lower bound alone *)
  assert (Hconv : (if is_nil d1 then ((1, None), adv1 i c_colon r)
                   else match parse_usize d1 with
                        | Some n => ((n, Some n), adv (adv1 i c_colon r) d1 r1)
                        | None => ((1, None), adv1 i c_colon r)
                        end) = ((lo, hi), i') -> bounds_tail i r lo hi i').
  { intros Hx. destruct (is_nil d1); [left; inversion Hx; repeat split|].
    destruct (parse_usize d1) as [n|] eqn:E; [|left; inversion Hx; repeat split].
    right. inversion Hx; subst. exists d1, d1. split; [exact E|]. split; [right; exists d1, lo; split; [exact E|reflexivity]|].
    split; reflexivity. }
  destruct (is_nil d1) eqn:En; [left; inversion H; repeat split|].
  destruct r1 as [|c4 r2]; [exact (Hconv H)|].
  destruct (N.eqb_spec c4 c_comma) as [->|]; [|exact (Hconv H)].
  destruct (digits r2) as [d2 r3] eqn:Ed2. apply digits_suffix in Ed2.
  destruct (parse_usize d1) as [l|] eqn:E1; [|exact (Hconv H)].
  destruct (if is_nil d2 then Some None else option_map Some (parse_usize d2)) as [h|] eqn:E2; [|exact (Hconv H)].
  right. inversion H; subst. exists d1, (d1 ++ [c_comma] ++ d2). split; [exact E1|]. split.
  - destruct (is_nil d2); [left; inversion E2; reflexivity|]. destruct (parse_usize d2) as [h2|] eqn:E3; [|discriminate].
    right. exists d2, h2. split; [exact E3|inversion E2; reflexivity].
  - cbn [adv i_s]. rewrite <- !app_assoc. split; reflexivity.
Qed.

(* [a] is an alternative that can decline ([POk None]); then [b] is tried *)
Definition or_else {A} (a : pres (option A)) (b : pres A) : pres A :=
  match a with PFuel => PFuel | PErr => PErr | POk (Some x) => POk x | POk None => b end.

Definition rep_part (f : nat) (i iF : input) : pres (option (tok * input)) :=
  match head_eq c_lt (i_s iF) with
  | Some (c, r) =>
      match p_glob f TermRep (adv1 iF c r) with
      | PFuel => PFuel
      | PErr => POk None
      | POk (body, i1) =>
          let '((lo, hi), i2) := p_bounds i1 in
          match tag1 c_gt i2 with
          | Some i3 => POk (Some (TRep (mk_span i i3) body lo hi, i3))
          | None => POk None
          end
      end
  | None => POk None
  end.

Definition alt_part (f : nat) (i iF : input) : pres (option (tok * input)) :=
  match head_eq c_lbrace (i_s iF) with
  | Some (c, r) =>
      match p_branches f (adv1 iF c r) with
      | PFuel => PFuel
      | PErr => POk None
      | POk (bs, i1) =>
          match tag1 c_rbrace i1 with
          | Some i2 => POk (Some (TAlt (mk_span i i2) bs, i2))
          | None => POk None
          end
      end
  | None => POk None
  end.

Definition leaf_part (tm : terminator) (i iF : input) : pres (tok * input) :=
  match leaf_tok i (p_wildcard tm iF) with
  | Some x => POk x
  | None =>
      match leaf_tok i (p_class iF) with
      | Some x => POk x
      | None =>
          match head_eq SEP (i_s iF) with
          | Some (c, r) => POk (TLeaf (mk_span i (adv1 iF c r)) LSep, adv1 iF c r)
          | None => PErr
          end
      end
  end.

Lemma p_token_S : forall f tm i,
  p_token (S f) tm i =
  match leaf_tok i (p_literal (flags_with_state i)) with
  | Some x => POk x
  | None => or_else (rep_part f i (flags_with_state i))
              (or_else (alt_part f i (flags_with_state i)) (leaf_part tm i (flags_with_state i)))
  end.
Proof. reflexivity. Qed.

Lemma p_tokens_S : forall f tm i,
  p_tokens (S f) tm i =
  match p_token f tm i with
  | PFuel => PFuel
  | PErr => POk ([], i)
  | POk (t, i1) => match p_tokens f tm i1 with POk (ts, i2) => POk (t :: ts, i2) | PErr => PErr | PFuel => PFuel end
  end.
Proof. reflexivity. Qed.

Lemma p_branches_S : forall f i,
  p_branches (S f) i =
  match p_glob f TermAlt i with
  | PFuel => PFuel
  | PErr => PErr
  | POk (b, i1) =>
      match head_eq c_comma (i_s i1) with
      | Some (c, r) =>
          match p_branches f (adv1 i1 c r) with
          | PFuel => PFuel
          | PErr => POk ([b], i1)
          | POk (bs, i2) => POk (b :: bs, i2)
          end
      | None => POk ([b], i1)
      end
  end.
Proof. reflexivity. Qed.

Lemma or_else_ok : forall {A} (a : pres (option A)) b x, or_else a b = POk x -> a = POk (Some x) \/ (a = POk None /\ b = POk x).
Proof.
  intros A [[y|]| |] b x H; try discriminate.
  - left. inversion H. reflexivity.
  - right. split; [reflexivity|exact H].
Qed.

Lemma or_else_fuel : forall {A} (a : pres (option A)) b, or_else a b = PFuel -> a = PFuel \/ b = PFuel.
Proof. intros A [[y|]| |] b H; try discriminate; [right; exact H|left; reflexivity]. Qed.

Lemma rep_part_ok : forall f i iF t i', rep_part f i iF = POk (Some (t, i')) ->
  exists r body i1 lo hi i2,
    i_s iF = c_lt :: r /\ p_glob f TermRep (adv1 iF c_lt r) = POk (body, i1) /\ p_bounds i1 = ((lo, hi), i2) /\
    tag1 c_gt i2 = Some i' /\ t = TRep (mk_span i i') body lo hi.
Proof.
  intros f i iF t i' H. unfold rep_part in H. destruct (head_eq c_lt (i_s iF)) as [[c r]|] eqn:Eh; [|discriminate].
  apply head_eq_some in Eh. destruct Eh as [-> Eh].
  destruct (p_glob f TermRep (adv1 iF c_lt r)) as [[body i1]| |] eqn:Eg; try discriminate.
  destruct (p_bounds i1) as [[lo hi] i2] eqn:Eb. destruct (tag1 c_gt i2) as [i3|] eqn:Et; [|discriminate].
  inversion H; subst. exists r, body, i1, lo, hi, i2. repeat split; assumption.
Qed.

Lemma alt_part_ok : forall f i iF t i', alt_part f i iF = POk (Some (t, i')) ->
  exists r bs i1,
    i_s iF = c_lbrace :: r /\ p_branches f (adv1 iF c_lbrace r) = POk (bs, i1) /\ tag1 c_rbrace i1 = Some i' /\
    t = TAlt (mk_span i i') bs.
Proof.
  intros f i iF t i' H. unfold alt_part in H. destruct (head_eq c_lbrace (i_s iF)) as [[c r]|] eqn:Eh; [|discriminate].
  apply head_eq_some in Eh. destruct Eh as [-> Eh].
  destruct (p_branches f (adv1 iF c_lbrace r)) as [[bs i1]| |] eqn:Eb; try discriminate.
  destruct (tag1 c_rbrace i1) as [i2|] eqn:Et; [|discriminate].
  inversion H; subst. exists r, bs, i1. repeat split; assumption.
Qed.

Lemma rep_part_fuel : forall f i iF, rep_part f i iF = PFuel ->
  exists r, i_s iF = c_lt :: r /\ p_glob f TermRep (adv1 iF c_lt r) = PFuel.
Proof.
  intros f i iF H. unfold rep_part in H. destruct (head_eq c_lt (i_s iF)) as [[c r]|] eqn:Eh; [|discriminate].
  apply head_eq_some in Eh. destruct Eh as [-> Eh]. exists r. split; [exact Eh|].
  destruct (p_glob f TermRep (adv1 iF c_lt r)) as [[body i1]| |]; try discriminate; [|reflexivity].
  destruct (p_bounds i1) as [[lo hi] i2]. destruct (tag1 c_gt i2); discriminate.
Qed.

Lemma alt_part_fuel : forall f i iF, alt_part f i iF = PFuel ->
  exists r, i_s iF = c_lbrace :: r /\ p_branches f (adv1 iF c_lbrace r) = PFuel.
Proof.
  intros f i iF H. unfold alt_part in H. destruct (head_eq c_lbrace (i_s iF)) as [[c r]|] eqn:Eh; [|discriminate].
  apply head_eq_some in Eh. destruct Eh as [-> Eh]. exists r. split; [exact Eh|].
  destruct (p_branches f (adv1 iF c_lbrace r)) as [[bs i1]| |]; try discriminate; [|reflexivity].
  destruct (tag1 c_rbrace i1); discriminate.
Qed.

Lemma leaf_part_fuel : forall tm i iF, leaf_part tm i iF <> PFuel.
Proof.
  intros tm i iF. unfold leaf_part. destruct (leaf_tok i (p_wildcard tm iF)); [discriminate|].
  destruct (leaf_tok i (p_class iF)); [discriminate|]. destruct (head_eq SEP (i_s iF)) as [[c r]|]; discriminate.
Qed.

Lemma p_token_S_fuel : forall f tm i, p_token (S f) tm i = PFuel ->
  rep_part f i (flags_with_state i) = PFuel \/ alt_part f i (flags_with_state i) = PFuel.
Proof.
  intros f tm i H. rewrite p_token_S in H. destruct (leaf_tok i (p_literal (flags_with_state i))); [discriminate|].
  apply or_else_fuel in H. destruct H as [H|H]; [left; exact H|]. apply or_else_fuel in H. destruct H as [H|H]; [right; exact H|].
  exfalso. exact (leaf_part_fuel _ _ _ H).
Qed.

(* The relation keeps what a success consists of and forgets what failed before it (the order of the alternatives, many1 stopping
   at the first failure): the parsers are sound for it, not complete. *)
(* [Rleaf tm i l i']: one of the leaf alternatives of [p_token] reads the leaf [l] from [i] (flags first) and stops at [i'] *)
Inductive Rleaf (tm : terminator) (i : input) : leaf -> input -> Prop :=
| RL_lit : forall l i', p_literal (flags_with_state i) = Some (l, i') -> Rleaf tm i l i'
| RL_wild : forall l i', p_wildcard tm (flags_with_state i) = Some (l, i') -> Rleaf tm i l i'
| RL_class : forall l i', p_class (flags_with_state i) = Some (l, i') -> Rleaf tm i l i'
| RL_sep : forall r, i_s (flags_with_state i) = SEP :: r -> Rleaf tm i LSep (adv1 (flags_with_state i) SEP r).

Inductive Rtoken : terminator -> input -> tok -> input -> Prop :=
| RT_leaf : forall tm i l i', Rleaf tm i l i' -> Rtoken tm i (TLeaf (mk_span i i') l) i'
| RT_rep : forall tm i r body i1 lo hi i2 i3,
    i_s (flags_with_state i) = c_lt :: r -> Rglob TermRep (adv1 (flags_with_state i) c_lt r) body i1 ->
    p_bounds i1 = ((lo, hi), i2) -> tag1 c_gt i2 = Some i3 ->
    Rtoken tm i (TRep (mk_span i i3) body lo hi) i3
| RT_alt : forall tm i r bs i1 i2,
    i_s (flags_with_state i) = c_lbrace :: r -> Rbranches (adv1 (flags_with_state i) c_lbrace r) bs i1 ->
    tag1 c_rbrace i1 = Some i2 ->
    Rtoken tm i (TAlt (mk_span i i2) bs) i2
with Rtokens : terminator -> input -> list tok -> input -> Prop :=
| RTs_nil : forall tm i, Rtokens tm i [] i
| RTs_cons : forall tm i t i1 ts i2, Rtoken tm i t i1 -> Rtokens tm i1 ts i2 -> Rtokens tm i (t :: ts) i2
with Rbranches : input -> list tok -> input -> Prop :=
| RB_one : forall i b i1, Rglob TermAlt i b i1 -> Rbranches i [b] i1
| RB_cons : forall i b i1 r bs i2,
    Rglob TermAlt i b i1 -> i_s i1 = c_comma :: r -> Rbranches (adv1 i1 c_comma r) bs i2 -> Rbranches i (b :: bs) i2
with Rglob : terminator -> input -> tok -> input -> Prop :=
| RG_cat : forall tm i ts i1,
    Rtokens tm (set_sub i) ts i1 -> ts <> [] -> term_ok tm i1 = true -> Rglob tm i (TCat (mk_span (set_sub i) i1) ts) i1.

Scheme Rtoken_mind := Minimality for Rtoken Sort Prop
  with Rtokens_mind := Minimality for Rtokens Sort Prop
  with Rbranches_mind := Minimality for Rbranches Sort Prop
  with Rglob_mind := Minimality for Rglob Sort Prop.
Combined Scheme R_ind from Rtoken_mind, Rtokens_mind, Rbranches_mind, Rglob_mind.

Lemma leaf_part_ok : forall tm i t i', leaf_part tm i (flags_with_state i) = POk (t, i') ->
  exists l, Rleaf tm i l i' /\ t = TLeaf (mk_span i i') l.
Proof.
  intros tm i t i' H. unfold leaf_part in H.
  destruct (p_wildcard tm (flags_with_state i)) as [[l j]|] eqn:Ew; cbn [leaf_tok] in H.
  { inversion H; subst. exists l. split; [apply RL_wild; exact Ew|reflexivity]. }
  destruct (p_class (flags_with_state i)) as [[l j]|] eqn:Ec; cbn [leaf_tok] in H.
  { inversion H; subst. exists l. split; [apply RL_class; exact Ec|reflexivity]. }
  destruct (head_eq SEP (i_s (flags_with_state i))) as [[c r]|] eqn:Es; [|discriminate].
  apply head_eq_some in Es. destruct Es as [-> Es]. inversion H; subst. exists LSep. split; [apply RL_sep; exact Es|reflexivity].
Qed.

Theorem parser_sound : forall f,
  (forall tm i t i', p_token f tm i = POk (t, i') -> Rtoken tm i t i') /\
  (forall tm i ts i', p_tokens f tm i = POk (ts, i') -> Rtokens tm i ts i') /\
  (forall i bs i', p_branches f i = POk (bs, i') -> Rbranches i bs i') /\
  (forall tm i t i', p_glob f tm i = POk (t, i') -> Rglob tm i t i').
Proof.
  induction f as [|f [IHt [IHts [IHb IHg]]]]; [repeat split; discriminate|]. split; [|split; [|split]].
  - intros tm i t i' H. rewrite p_token_S in H.
    destruct (p_literal (flags_with_state i)) as [[l j]|] eqn:El; cbn [leaf_tok] in H.
    { inversion H; subst. apply RT_leaf, RL_lit. exact El. }
    apply or_else_ok in H. destruct H as [H|[_ H]].
    { apply rep_part_ok in H. destruct H as (r & body & i1 & lo & hi & i2 & Hs & Hg & Hb & Ht & ->). eapply RT_rep; eauto. }
    apply or_else_ok in H. destruct H as [H|[_ H]].
    { apply alt_part_ok in H. destruct H as (r & bs & i1 & Hs & Hb & Ht & ->). eapply RT_alt; eauto. }
    apply leaf_part_ok in H. destruct H as [l [Hl ->]]. apply RT_leaf. exact Hl.
  - intros tm i ts i' H. rewrite p_tokens_S in H. destruct (p_token f tm i) as [[t i1]| |] eqn:Et; [| |discriminate].
    + destruct (p_tokens f tm i1) as [[ts' i2]| |] eqn:Ets; try discriminate. inversion H; subst. eapply RTs_cons; eauto.
    + inversion H; subst. apply RTs_nil.
  - intros i bs i' H. rewrite p_branches_S in H. destruct (p_glob f TermAlt i) as [[b i1]| |] eqn:Eg; try discriminate.
    apply IHg in Eg. destruct (head_eq c_comma (i_s i1)) as [[c r]|] eqn:Ec; [|inversion H; subst; apply RB_one; exact Eg].
    apply head_eq_some in Ec. destruct Ec as [-> Ec].
    destruct (p_branches f (adv1 i1 c_comma r)) as [[bs' i2]| |] eqn:Eb; [| |discriminate]; inversion H; subst.
    + eapply RB_cons; eauto.
    + apply RB_one. exact Eg.
  - intros tm i t i' H. cbn [p_glob] in H. destruct (p_tokens f tm (set_sub i)) as [[ts i1]| |] eqn:Ets; try discriminate.
    destruct ts as [|t0 ts]; [discriminate|]. destruct (term_ok tm i1) eqn:Etm; [|discriminate]. inversion H; subst.
    apply RG_cat; [apply IHts; exact Ets|discriminate|exact Etm].
Qed.

Lemma p_tokens_R : forall f tm i ts i', p_tokens f tm i = POk (ts, i') -> Rtokens tm i ts i'.
Proof. intros f. exact (proj1 (proj2 (parser_sound f))). Qed.

Lemma parse_ok_R : forall e t, parse e = ParseOk t ->
  (e = [] /\ t = tok_empty) \/
  exists ts i1, Rtokens TermTop (set_sub (init_input e)) ts i1 /\ ts <> [] /\ i_s i1 = [] /\ t = TCat (0, i_pos i1) ts.
Proof.
  intros e t H. unfold parse in H. destruct e as [|c e]; [left; inversion H; split; reflexivity|right].
  destruct (p_tokens (parse_fuel (c :: e)) TermTop (set_sub (init_input (c :: e)))) as [[ts i1]| |] eqn:E; try discriminate.
  destruct ts as [|t0 ts]; [discriminate|]. destruct (i_s i1) eqn:Es; [|discriminate]. inversion H; subst.
  exists (t0 :: ts), i1. split; [eapply p_tokens_R; exact E|]. repeat split; [discriminate|exact Es].
Qed.

Lemma Rtoken_span : forall tm i t i', Rtoken tm i t i' -> tspan t = mk_span i i'.
Proof. intros tm i t i' H. destruct H; reflexivity. Qed.

Lemma Rtoken_leaf : forall tm i sp l i', Rtoken tm i (TLeaf sp l) i' -> Rleaf tm i l i'.
Proof. intros tm i sp l i' H. inversion H; subst. assumption. Qed.

Lemma Rleaf_wildcard : forall tm i l i', Rleaf tm i l i' ->
  match l with LOne | LZom _ | LTree _ => p_wildcard tm (flags_with_state i) = Some (l, i') | _ => True end.
Proof.
  intros tm i l i' [l0 j H|l0 j H|l0 j H|r H].
  - apply p_literal_inv in H. destruct H as (text & rest & _ & _ & -> & _). exact I.
  - destruct l0; try exact I; exact H.
  - apply p_class_inv in H. destruct H as (neg & archs & c & -> & _). exact I.
  - exact I.
Qed.

(* A predicate on tokens that every leaf the grammar reads satisfies, and that every node the grammar builds from members that satisfy
   it satisfies, holds of every parsed tree.  The hypotheses say all the grammar guarantees of a node: a repetition has a
   concatenation as body and bounds read by [p_bounds]; the branches of an alternation are concatenations, at least one; the
   members of a concatenation are not concatenations, at least one, read one after the other. *)
Section Tree.
Variable Q : tok -> Prop.
Hypothesis Qleaf : forall tm i l i', Rleaf tm i l i' -> Q (TLeaf (mk_span i i') l).
Hypothesis Qrep : forall sp b lo hi i1 i2, is_cat b = true -> Q b -> p_bounds i1 = ((lo, hi), i2) -> Q (TRep sp b lo hi).
Hypothesis Qalt : forall sp bs, bs <> [] -> Forall (fun b => is_cat b = true) bs -> Forall Q bs -> Q (TAlt sp bs).
Hypothesis Qcat : forall tm i ts i' sp,
  Rtokens tm i ts i' -> ts <> [] -> Forall (fun t => is_cat t = false) ts -> Forall Q ts -> Q (TCat sp ts).

Lemma R_tree :
  (forall tm i t i', Rtoken tm i t i' -> is_cat t = false /\ Q t) /\
  (forall tm i ts i', Rtokens tm i ts i' -> Forall (fun t => is_cat t = false) ts /\ Forall Q ts) /\
  (forall i bs i', Rbranches i bs i' -> bs <> [] /\ Forall (fun b => is_cat b = true) bs /\ Forall Q bs) /\
  (forall tm i t i', Rglob tm i t i' -> is_cat t = true /\ Q t).
Proof.
  apply R_ind.
  - intros tm i l i' Hl. split; [reflexivity|]. eapply Qleaf. exact Hl.
  - intros tm i r body i1 lo hi i2 i3 _ _ [Hc Hq] Hb _. split; [reflexivity|]. eapply Qrep; eassumption.
  - intros tm i r bs i1 i2 _ _ [Hne [Hc Hq]] _. split; [reflexivity|]. apply Qalt; assumption.
  - intros tm i. split; constructor.
  - intros tm i t i1 ts i2 _ [Hc Hq] _ [Hcs Hqs]. split; constructor; assumption.
  - intros i b i1 _ [Hc Hq]. split; [discriminate|]. split; constructor; auto.
  - intros i b i1 r bs i2 _ [Hc Hq] _ _ [_ [Hcs Hqs]]. split; [discriminate|]. split; constructor; assumption.
  - intros tm i ts i1 Hts [Hc Hq] Hne _. split; [reflexivity|]. eapply Qcat; eassumption.
Qed.

Theorem parse_tree_inv : Q tok_empty -> forall e t, parse e = ParseOk t -> Q t.
Proof.
  intros Hempty e t H. apply parse_ok_R in H. destruct H as [[_ ->]|(ts & i1 & Hts & Hne & _ & ->)]; [exact Hempty|].
  destruct (proj1 (proj2 R_tree) _ _ _ _ Hts) as [Hc Hq]. eapply Qcat; eassumption.
Qed.
End Tree.

Lemma build_ok_inv : forall e t r, build e = BuildOk t r ->
  parse e = ParseOk t /\ check t = Ok None /\ r = encode t /\ compile_ok (encode t) = true.
Proof.
  intros e t r H. unfold build in H. destruct (parse e) as [t0| |]; try discriminate.
  destruct (check t0) as [[[k sp]|]|s] eqn:Ek; try discriminate. destruct (compile_ok (encode t0)) eqn:Ec; [|discriminate].
  inversion H; subst. repeat split; assumption.
Qed.
