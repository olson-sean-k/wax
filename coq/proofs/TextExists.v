(* TextExists.v -- C11 (existence): a pattern that reports invariant text does match that text (it belongs to the
   documented language; [invariant_text_is_matched], on the class [classes_plain]) - the complement of TextFacts.text_unique;
   together: [invariant_text_characterises]. *)
From WaxModel Require Import Base Token Regex Spec Variance Fold.
From WaxProofs Require Import SpecFacts EncodeLang TextFacts.

(* every class that is not negated lists at least one character and never the separator (a class that lists `/` reports the
   text `/` although it matches nothing: the known class separator_class) *)
Definition arch_has_sep (a : arch) : bool := match a with AChar d => N.eqb SEP d | ARange x y => (x <=? SEP) && (SEP <=? y) end.
Fixpoint classes_plain (t : tok) : bool :=
  match t with
  | TLeaf _ (LClass false a) => negb (is_nil a) && forallb (fun x => negb (arch_has_sep x)) a
  | TLeaf _ _ => true
  | TAlt _ bs => forallb classes_plain bs
  | TCat _ ts => forallb classes_plain ts
  | TRep _ b _ _ => classes_plain b
  end.

Section TextExists.
Variable orbit : char -> list char.
Variable has_casing : char -> bool.
Notation FlatMatch := (Spec.FlatMatch orbit).
Notation leaf_piece := (Spec.leaf_piece orbit).

Lemma leaf_text_matched : forall sp l0 t f l,
  classes_plain (TLeaf sp l0) = true -> text_leaf has_casing l0 = Inv t -> leaf_piece f l l0 (text_to_string t).
Proof.
  intros sp l0 t f l Hc Ht. destruct l0 as [ci s| |neg a| |lz|root]; cbn [text_leaf leaf_piece] in *; try discriminate.
  - destruct (ci && existsb has_casing s); [discriminate|]. inversion Ht; subst. cbn. rewrite app_nil_r. apply lit_sem_refl.
  - inversion Ht; subst. reflexivity.
  - destruct neg; [discriminate|]. cbn [classes_plain] in Hc. apply andb_prop in Hc. destruct Hc as [Hne Hns].
    destruct a as [|x a]; [discriminate|]. cbn [map reduce_pure] in Ht.
    assert (Hx : arch_text x = Inv t).
    { destruct (fold_left tvar_disj (map arch_text a) (arch_text x)) eqn:E; [|discriminate]. inversion Ht; subst.
      apply fold_disj_inv in E. exact (proj1 E). }
    cbn [forallb] in Hns. apply andb_prop in Hns as [Hxs _]. change (arch_has_sep x) with (arch_in SEP x) in Hxs.
    destruct (arch_text_inv x t Hx) as [c [-> Hin]]. exists c. split; [reflexivity|]. unfold class_match. cbn [existsb xorb].
    rewrite (proj2 (Hin c) eq_refl). destruct (N.eqb_spec c SEP) as [->|_]; [|reflexivity].
    rewrite (proj2 (Hin SEP) eq_refl) in Hxs. discriminate.
Qed.

Definition matched_text (t : tok) : Prop :=
  forall txt, text_fold has_casing t = Ok (Some (Inv txt)) ->
  exists x, Expands t x /\ forall f l, FlatMatch f l x (text_to_string txt).

Lemma flatmatchs_allpos : forall xs ss,
  Forall2 (fun (x : list leaf) (s : str) => forall f l, FlatMatch f l x s) xs ss ->
  forall f l, FlatMatchs orbit f l xs (concat ss).
Proof.
  intros xs ss H. induction H as [|x s xs ss Hx _ IH]; intros f l; [reflexivity|].
  cbn [FlatMatchs concat]. exists s, (concat ss). split; [reflexivity|]. split; [apply Hx|apply IH].
Qed.

Theorem text_matched : forall t, nonempty_branches t = true -> classes_plain t = true -> matched_text t.
Proof.
  induction t as [sp l0|sp bs IH|sp ts IH|sp b lo hi IH] using tok_ind'; intros Hne Hcl txt Ht.
  - cbn [text_fold] in Ht. inversion Ht as [Hl]. exists [l0]. split; [constructor|]. intros f l. apply flatmatch_single.
    eapply leaf_text_matched; eassumption.
  - (* every branch reports the same text: the first one is the witness *)
    pose proof (text_fold_alt_inv has_casing sp bs txt Hne Ht) as HT.
    apply nonempty_branches_alt in Hne. destruct Hne as [Hnil Hall]. cbn [classes_plain] in Hcl. apply forallb_Forall in Hcl.
    destruct HT as [|b0 bs' [t' [Ht' Hs]] _]; [congruence|].
    inversion IH as [|? ? IH0 _]; subst. inversion Hall as [|? ? H0 _]; subst. inversion Hcl as [|? ? C0 _]; subst.
    destruct (IH0 H0 C0 t' Ht') as [x [Hx Hm]].
    exists x. split; [eapply E_alt; [left; reflexivity|exact Hx]|]. rewrite <- Hs. exact Hm.
  - destruct (text_fold_cat_inv has_casing sp ts txt Hne Ht) as [tl [HT Hs]].
    apply nonempty_branches_cat in Hne. destruct Hne as [_ Hall]. cbn [classes_plain] in Hcl. apply forallb_Forall in Hcl.
    assert (Hxs : exists xs, Forall2 Expands ts xs /\
              Forall2 (fun (x : list leaf) (s : str) => forall f l, FlatMatch f l x s) xs (map text_to_string tl)).
    { clear Hs Ht. induction HT as [|t0 t1 ts' tl' Ht1 _ IHT]; [exists []; split; constructor|].
      inversion IH as [|? ? IH0 IH']; subst. inversion Hall as [|? ? H0 Hall']; subst. inversion Hcl as [|? ? C0 Hcl']; subst.
      destruct (IH0 H0 C0 t1 Ht1) as [x0 [Hx0 Hm0]]. destruct (IHT IH' Hall' Hcl') as [xs [Hxs Hms]].
      exists (x0 :: xs). split; [constructor; assumption|]. cbn [map]. constructor; assumption. }
    destruct Hxs as [xs [Hxs Hms]]. exists (concat xs). split; [constructor; exact Hxs|].
    intros f l. rewrite Hs. apply flatmatch_concat. apply flatmatchs_allpos. exact Hms.
  - destruct (text_fold_rep_inv has_casing sp b lo hi txt Hne Ht) as [a [-> [Ha Hs]]].
    apply nonempty_branches_rep in Hne. destruct Hne as [Hn _]. cbn [classes_plain] in Hcl.
    destruct (IH Hn Hcl a Ha) as [x [Hx Hm]].
    exists (concat (repeat x (N.to_nat lo))). split.
    + constructor; [unfold in_bounds; rewrite repeat_length, N2Nat.id; split; apply N.le_refl|].
      apply Forall_forall. intros y Hy. apply repeat_spec in Hy. subst. exact Hx.
    + intros f l. rewrite Hs. apply flatmatch_concat. apply flatmatchs_allpos. apply forall2_repeat. exact Hm.
Qed.

(* C11 (existence): a pattern that reports invariant text matches that text *)
Theorem invariant_text_is_matched : forall t txt,
  nonempty_branches t = true -> classes_plain t = true ->
  text_variance has_casing t = Ok (Inv txt) -> Lang orbit t (text_to_string txt).
Proof.
  intros t txt Hne Hcl H. destruct (text_matched t Hne Hcl txt (text_variance_fold has_casing t txt Hne H)) as [x [Hx Hm]].
  exists x. split; [exact Hx|apply Hm].
Qed.

End TextExists.

(* C11: the documented language of a pattern that reports invariant text is exactly that text *)
Theorem invariant_text_characterises :
  forall (orbit : char -> list char) (has_casing : char -> bool),
    (forall c d, has_casing c = false -> In d (orbit c) -> d = c) ->
    forall t txt, nonempty_branches t = true -> classes_plain t = true -> text_variance has_casing t = Ok (Inv txt) ->
    forall w, Lang orbit t w <-> w = text_to_string txt.
Proof.
  intros orbit hc Hco t txt Hne Hcl Ht w. split.
  - intros Hl. eapply invariant_text_is_the_only_text; eassumption.
  - intros ->. eapply invariant_text_is_matched; eassumption.
Qed.
