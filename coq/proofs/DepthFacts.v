(* DepthFacts.v -- C10, the counting: the components of a canonical path, and leaf sequences without tree wildcards, whose
   depth term is invariant and counts the components of every canonical path they match. *)
From WaxModel Require Import Base Token Regex Spec Variance Fold.
From WaxProofs Require Import SpecFacts EncodeLang AlgebraClosure.

Local Arguments N.add : simpl never.
Local Arguments N.ltb : simpl never.

Fixpoint seps (w : str) : N :=
  match w with [] => 0 | c :: w' => (if N.eqb c SEP then 1 else 0) + seps w' end.

Lemma seps_app : forall u v, seps (u ++ v) = seps u + seps v.
Proof. induction u as [|c u IH]; intros v; cbn [app seps]; [lia|]. rewrite IH. lia. Qed.

Lemma nosep_seps : forall w, nosep w = true -> seps w = 0.
Proof.
  induction w as [|c w IH]; intros H; [reflexivity|]. cbn [nosep forallb] in H. apply andb_prop in H. destruct H as [Hc Hw].
  cbn [seps]. fold (nosep w) in Hw. rewrite (IH Hw). destruct (c =? SEP); [discriminate|reflexivity].
Qed.

(* no empty component, except that the path may begin with one separator *)
Fixpoint no_double_sep (w : str) : bool :=
  match w with
  | c :: ((d :: _) as w') => negb (N.eqb c SEP && N.eqb d SEP) && no_double_sep w'
  | _ => true
  end.
Definition canonical (w : str) : bool :=
  no_double_sep w && negb (ends_sep w && negb (is_nil (tl w))).

(* the number of non-empty components of a canonical path *)
Definition ncomp (w : str) : N :=
  match w with
  | [] => 0
  | _ => if starts_sep w then (if is_nil (tl w) then 0 else seps w) else seps w + 1
  end.

Lemma ncomp_seps : forall p, 1 <= ncomp p -> ncomp p = seps p + (if starts_sep p then 0 else 1).
Proof.
  intros [|c p] H; [cbn in H; lia|]. unfold ncomp in *. destruct (starts_sep (c :: p)); [|reflexivity].
  destruct (is_nil (tl (c :: p))); lia.
Qed.

Lemma no_trailing_sep : forall p, canonical p = true -> 1 <= ncomp p -> ends_sep p = false.
Proof.
  intros p Hcan Hn. destruct (ends_sep p) eqn:He; [|reflexivity]. unfold canonical in Hcan. apply andb_prop in Hcan. destruct Hcan as [_ Hc].
  rewrite He in Hc. cbn [andb] in Hc. apply negb_true_iff in Hc. apply negb_false_iff in Hc.
  destruct p as [|c [|d p']]; [discriminate| |discriminate].
  unfold ends_sep in He. cbn in He. unfold ncomp in Hn. cbn [starts_sep] in Hn. rewrite He in Hn. cbn in Hn. lia.
Qed.

Definition flat_leaf (t : tok) : bool := match t with TLeaf _ (LTree _) => false | TLeaf _ _ => true | _ => false end.
Definition leaf_of (t : tok) : leaf := match t with TLeaf _ l => l | _ => LSep end.
Definition is_sep_leaf (l : leaf) : bool := match l with LSep => true | _ => false end.

Definition leaf_ok (l : leaf) : bool :=
  match l with LTree _ => false | LLit _ s => nosep s | _ => true end.

Definition flat_cat (ts : list tok) : bool :=
  negb (is_nil ts) && forallb (fun t => flat_leaf t && leaf_ok (leaf_of t)) ts.

Definition count_seps (ls : list leaf) : N := N.of_nat (length (filter is_sep_leaf ls)).

Lemma count_seps_cons : forall l ls, count_seps (l :: ls) = (if is_sep_leaf l then 1 else 0) + count_seps ls.
Proof. intros l ls. unfold count_seps. cbn [filter]. destruct (is_sep_leaf l); cbn [length]; lia. Qed.

Definition term_of_flags (s e : bool) : termination :=
  match s, e with true, true => TClosed | true, false => TFirst | false, true => TLast | false, false => TOpen end.

Lemma term_conj_flags : forall s1 e1 s2 e2,
  term_conj (term_of_flags s1 e1) (term_of_flags s2 e2) = CNeither (term_of_flags s1 e2).
Proof. intros [] [] [] []; reflexivity. Qed.

Lemma sterm_conj_flags : forall s1 e1 n1 s2 e2 n2 c,
  sterm_conj (term_of_flags s1 e1, Inv n1) (term_of_flags s2 e2, Inv n2) = Ok c -> c = (term_of_flags s1 e2, Inv (n1 + n2)).
Proof.
  intros s1 e1 n1 s2 e2 n2 c H. unfold sterm_conj in H. cbn [fst snd] in H. rewrite term_conj_flags in H. cbn [nvar_conj] in H.
  apply rbind_ok in H. destruct H as [v [E H]]. apply rbind_ok in E. destruct E as [c0 [E Ev]]. apply cadd_ok in E.
  inversion Ev; subst. inversion H. reflexivity.
Qed.

(* only the absence of a tree wildcard matters here; [leaf_ok] is the class the counting of separators needs *)
Lemma depth_leaf_flat : forall l, leaf_ok l = true ->
  depth_leaf l = BConj (term_of_flags (is_sep_leaf l) (is_sep_leaf l), Inv (if is_sep_leaf l then 1 else 0)).
Proof. intros []; try discriminate; reflexivity. Qed.

Lemma fold_flat : forall ls s e n acc, forallb leaf_ok ls = true ->
  rfold bterm_conj (BConj (term_of_flags s e, Inv n)) (map depth_leaf ls) = Ok acc ->
  acc = BConj (term_of_flags s (match last_opt ls with Some l => is_sep_leaf l | None => e end), Inv (n + count_seps ls)).
Proof.
  induction ls as [|l ls IH]; intros s e n acc HF H.
  - cbn in H. inversion H; subst. unfold count_seps. cbn. f_equal. f_equal. f_equal. lia.
  - cbn [forallb] in HF. apply andb_prop in HF. destruct HF as [Hl HF']. cbn [map rfold] in H. rewrite (depth_leaf_flat l Hl) in H.
    apply rbind_ok in H. destruct H as [acc' [E H]]. cbn [bterm_conj] in E. apply rbind_ok in E. destruct E as [c [E E']].
    apply sterm_conj_flags in E. subst c. inversion E'; subst acc'.
    apply IH in H; [|exact HF']. subst acc. rewrite last_opt_cons, count_seps_cons, N.add_assoc. destruct (last_opt ls); reflexivity.
Qed.

(* the depth a flat pattern reports: the separators, plus one if it neither begins nor ends with one, minus one if both *)
Definition flat_depth (ls : list leaf) : N :=
  let n := count_seps ls in
  match ls with
  | [] => 0
  | l0 :: _ =>
      match is_sep_leaf l0, (match last_opt ls with Some l => is_sep_leaf l | None => false end) with
      | false, false => n + 1
      | true, true => N.pred n
      | _, _ => n
      end
  end.

Lemma finalize_flags : forall s e n v, sterm_finalize (term_of_flags s e, Inv n) = Ok v ->
  v = Inv (match s, e with false, false => n + 1 | true, true => N.pred n | _, _ => n end).
Proof.
  intros [] [] n v H; unfold sterm_finalize in H; cbn [term_of_flags fst snd nvar_conj] in H; try (inversion H; reflexivity).
  apply rbind_ok in H. destruct H as [c [E H]]. apply cadd_ok in E. inversion H; subst. reflexivity.
Qed.

Lemma flat_leaves_depth : forall l0 ls v, forallb leaf_ok (l0 :: ls) = true ->
  (do r <- rreduce bterm_conj (map depth_leaf (l0 :: ls)); bterm_finalize (match r with Some x => x | None => bterm_zero end)) = Ok v ->
  v = Inv (flat_depth (l0 :: ls)).
Proof.
  intros l0 ls v Hok Hv. cbn [forallb] in Hok. apply andb_prop in Hok. destruct Hok as [H0 Hrest]. cbn [map rreduce] in Hv. rewrite (depth_leaf_flat l0 H0) in Hv.
  destruct (rfold bterm_conj _ (map depth_leaf ls)) as [acc|] eqn:Ef; [|discriminate]. apply fold_flat in Ef; [|exact Hrest]. subst acc.
  cbn [rmap rbind bterm_finalize] in Hv. apply finalize_flags in Hv. subst v.
  unfold flat_depth. rewrite count_seps_cons, (last_opt_cons l0 ls). destruct (last_opt ls); reflexivity.
Qed.

Section DepthSound.
Variable orbit : char -> list char.
Notation FlatMatch := (Spec.FlatMatch orbit).

Lemma last_sep_ends : forall x f l w, FlatMatch f l x w -> last_opt x = Some LSep -> ends_sep w = true.
Proof.
  induction x as [|b x IH]; intros f l w Hm Hl; [discriminate|].
  inversion Hm as [|f0 l0 a0 x0 u v Hp Hrest]; subst. destruct x as [|c x'].
  - cbn in Hl. inversion Hl; subst b. inversion Hrest; subst. rewrite app_nil_r. cbn [leaf_piece] in Hp. subst u. reflexivity.
  - change (last_opt (b :: c :: x')) with (last_opt (c :: x')) in Hl. pose proof (IH _ _ _ Hrest Hl) as He.
    apply ends_sep_iff in He. destruct He as [v' ->]. apply ends_sep_iff. exists (u ++ v'). apply app_assoc.
Qed.

Lemma no_last_sep : forall x f l w, FlatMatch f l x w -> canonical w = true -> 1 <= ncomp w -> last_opt x <> Some LSep.
Proof. intros x f l w Hm Hcan Hn Hl. pose proof (no_trailing_sep w Hcan Hn) as He. rewrite (last_sep_ends _ _ _ _ Hm Hl) in He. discriminate. Qed.

(* case folding never produces a separator (true of Unicode simple case folding; the table is dumped on every run) *)
Hypothesis orbit_nosep : forall c d, In d (orbit c) -> d <> SEP.

Lemma lit_sem_nosep : forall ci s w, nosep s = true -> lit_sem orbit ci s w -> nosep w = true.
Proof.
  intros ci s w Hs H. induction H as [|c d s w Hm _ IH]; [reflexivity|].
  cbn [nosep forallb] in *. apply andb_prop in Hs. destruct Hs as [Hc Hs]. fold (nosep s) in Hs. fold (nosep w).
  rewrite (IH Hs), andb_true_r. unfold lit_char_match in Hm. apply orb_prop in Hm. destruct Hm as [Hm|Hm].
  - apply N.eqb_eq in Hm. subst d. exact Hc.
  - apply andb_prop in Hm. destruct Hm as [_ Hm]. unfold mem in Hm. apply existsb_exists in Hm. destruct Hm as [x [Hin Hx]].
    apply N.eqb_eq in Hx. subst x. apply negb_true_iff. apply N.eqb_neq. apply (orbit_nosep c d Hin).
Qed.

Lemma piece_seps : forall f l a u, leaf_ok a = true -> leaf_piece orbit f l a u -> seps u = (if is_sep_leaf a then 1 else 0).
Proof.
  intros f l a u Ha Hp. destruct a; cbn [leaf_ok leaf_piece is_sep_leaf] in *; try discriminate.
  - apply nosep_seps. eapply lit_sem_nosep; eassumption.
  - subst u. reflexivity.
  - destruct Hp as [c [-> Hc]]. apply EncodeFacts.class_match_nosep, N.eqb_neq in Hc. cbn [seps]. rewrite Hc. reflexivity.
  - destruct Hp as [c [-> Hc]]. cbn [seps]. apply N.eqb_neq in Hc. rewrite Hc. reflexivity.
  - apply nosep_seps. exact Hp.
Qed.

Lemma flat_seps : forall x f l w, forallb leaf_ok x = true -> FlatMatch f l x w -> seps w = count_seps x.
Proof.
  induction x as [|a x IH]; intros f l w Hx Hm.
  - inversion Hm; subst. reflexivity.
  - inversion Hm as [|f0 l0 a0 x0 u v Hp Hrest]; subst. cbn [forallb] in Hx. apply andb_prop in Hx. destruct Hx as [Ha Hx].
    rewrite seps_app, (IH _ _ _ Hx Hrest), (piece_seps _ _ _ _ Ha Hp), count_seps_cons. reflexivity.
Qed.

Lemma flat_leaves_sound : forall l0 ls p, forallb leaf_ok (l0 :: ls) = true -> FlatMatch true true (l0 :: ls) p ->
  canonical p = true -> 1 <= ncomp p -> starts_sep p = is_sep_leaf l0 -> ncomp p = flat_depth (l0 :: ls).
Proof.
  intros l0 ls p Hlk Hm Hcan Hn Hroot. rewrite (ncomp_seps p Hn), Hroot, (flat_seps _ _ _ _ Hlk Hm). unfold flat_depth.
  pose proof (no_last_sep _ _ _ _ Hm Hcan Hn) as Hlast.
  assert (El : (match last_opt (l0 :: ls) with Some l => is_sep_leaf l | None => false end) = false).
  { destruct (last_opt (l0 :: ls)) as [[]|]; try reflexivity. congruence. }
  rewrite El. destruct (is_sep_leaf l0); [apply N.add_0_r|reflexivity].
Qed.

End DepthSound.
