(* SpecMatchFacts.v -- the executable oracle [Spec.spec_match] decides the documented language [Spec.Lang]:
   spec_match orbit t w = true  <->  Lang orbit t w,  for every token tree and every text ([spec_match_spec]).
   The correspondence check compares the implementation's is_match with this oracle, so it compares it with the very
   language the theorems are about. *)
From WaxModel Require Import Base Token Regex Spec.
From WaxProofs Require Import SpecFacts MatcherFacts.
Local Open Scope nat_scope.

Section SpecMatch.
Variable orbit : char -> list char.
Notation FlatMatch := (Spec.FlatMatch orbit).
Notation leaf_piece := (Spec.leaf_piece orbit).
Notation Lang := (Spec.Lang orbit).
Notation sm := (Spec.sm orbit).
Notation leaf_sm := (Spec.leaf_sm orbit).

(* one step of the scan of a flat sequence with the four states *)
Definition step_ok (q : fstate) (a : leaf) (u : str) (q' : fstate) : Prop :=
  is_closed q = false /\
  match a with
  | LTree root => (tree_piece (is_start q) true root u = true /\ q' = QClosed) \/
                  (tree_piece (is_start q) false root u = true /\ q' = QNeed)
  | _ => leaf_piece false false a u /\ q' = QMid
  end.

Lemma tree_or_plain : forall a : leaf, (exists root, a = LTree root) \/ (match a with LTree _ => false | _ => true end) = true.
Proof. intros []; [right; reflexivity..|left; eexists; reflexivity]. Qed.

Lemma step_ok_plain : forall q a u q' f l, (match a with LTree _ => false | _ => true end) = true ->
  (step_ok q a u q' <-> is_closed q = false /\ leaf_piece f l a u /\ q' = QMid).
Proof. intros q a u q' f l Ha. unfold step_ok. destruct a; try discriminate; reflexivity. Qed.

Inductive Scan : fstate -> list leaf -> str -> fstate -> Prop :=
| Scan_nil : forall q, Scan q [] [] q
| Scan_cons : forall q a x u v q1 q2, step_ok q a u q1 -> Scan q1 x v q2 -> Scan q (a :: x) (u ++ v) q2.

Lemma scan_app : forall x y q w q2, Scan q (x ++ y) w q2 <-> exists u v q1, w = u ++ v /\ Scan q x u q1 /\ Scan q1 y v q2.
Proof.
  induction x as [|a x IH]; intros y q w q2; cbn [app].
  - split.
    + intros H. exists [], w, q. split; [reflexivity|]. split; [constructor|exact H].
    + intros [u [v [q1 [-> [Hx Hy]]]]]. inversion Hx; subst. exact Hy.
  - split.
    + intros H. inversion H as [|? ? ? u v q1 ? Hs Hr]; subst. apply IH in Hr. destruct Hr as [u2 [v2 [q3 [-> [H1 H2]]]]].
      exists (u ++ u2), v2, q3. split; [apply app_assoc|]. split; [econstructor; eassumption|exact H2].
    + intros [u [v [q1 [-> [Hx Hy]]]]]. inversion Hx as [|? ? ? u1 v1 q3 ? Hs Hr]; subst. rewrite <- app_assoc. econstructor; [exact Hs|].
      apply IH. exists v1, v, q1. split; [reflexivity|]. split; assumption.
Qed.

Lemma scan_flat : forall x q w, is_closed q = false ->
  ((exists q', Scan q x w q' /\ q' <> QNeed) <-> (FlatMatch (is_start q) true x w /\ (q = QNeed -> x <> []))).
Proof.
  induction x as [|a x IH]; intros q w Hq.
  - split.
    + intros [q' [Hs Hn]]. inversion Hs; subst. split; [constructor|]. intros ->. congruence.
    + intros [Hm Hn]. inversion Hm; subst. exists q. split; [constructor|]. intros ->. apply Hn; reflexivity.
  - split.
    + intros [q' [Hs Hn]]. inversion Hs as [|? ? ? u v q1 ? Hst Hr]; subst. split; [|discriminate].
      destruct (tree_or_plain a) as [[root ->]|Ha].
      * destruct Hst as [_ [[Hp ->]|[Hp ->]]].
        -- (* matched as last: nothing may follow *)
           inversion Hr as [|? ? ? ? ? ? ? Hst' _]; subst; [|destruct Hst' as [Hc _]; discriminate].
           constructor; [exact Hp|constructor].
        -- (* matched as not last: something must follow *)
           destruct x as [|b x']; [inversion Hr; subst; congruence|].
           constructor; [exact Hp|]. apply (proj1 (IH QNeed v eq_refl)). exists q'. split; assumption.
      * apply (step_ok_plain q a u q1 (is_start q) (true && is_nil x) Ha) in Hst. destruct Hst as [_ [Hp ->]].
        constructor; [exact Hp|]. apply (proj1 (IH QMid v eq_refl)). exists q'. split; assumption.
    + intros [Hm _]. inversion Hm as [|? ? ? ? u v Hp Hr]; subst. destruct (tree_or_plain a) as [[root ->]|Ha].
      * cbn [Spec.leaf_piece] in Hp. destruct x as [|b x'].
        -- inversion Hr; subst. cbn [is_nil andb] in Hp. exists QClosed. split; [|discriminate].
           econstructor; [|constructor]. split; [exact Hq|]. left. split; [exact Hp|reflexivity].
        -- cbn [is_nil andb] in Hp. destruct (proj2 (IH QNeed v eq_refl)) as [q' [Hs Hn]]; [split; [exact Hr|discriminate]|].
           exists q'. split; [|exact Hn]. econstructor; [|exact Hs]. split; [exact Hq|]. right. split; [exact Hp|reflexivity].
      * destruct (proj2 (IH QMid v eq_refl)) as [q' [Hs Hn]]; [split; [exact Hr|discriminate]|].
        exists q'. split; [|exact Hn]. econstructor; [|exact Hs].
        apply (step_ok_plain q a u QMid (is_start q) (true && is_nil x) Ha). split; [exact Hq|]. split; [exact Hp|reflexivity].
Qed.

Theorem scan_lang : forall x w, (exists q', Scan QStart x w q' /\ q' <> QNeed) <-> FlatMatch true true x w.
Proof.
  intros x w. rewrite (scan_flat x QStart w eq_refl). cbn [is_start]. split; [intros [H _]; exact H|intros H; split; [exact H|discriminate]].
Qed.

Lemma splits_spec : forall w u v, In (u, v) (splits w) <-> w = u ++ v.
Proof.
  induction w as [|c w IH]; intros u v; cbn [splits].
  - split; [intros [H|[]]; inversion H; reflexivity|]. intros H. destruct u; [|discriminate]. cbn in H. subst. left. reflexivity.
  - split.
    + intros [H|H]; [inversion H; reflexivity|]. apply in_map_iff in H. destruct H as [[u' v'] [E Hin]]. inversion E; subst.
      apply IH in Hin. subst. reflexivity.
    + intros H. destruct u as [|d u]; [left; cbn in H; subst; reflexivity|]. right. cbn in H. inversion H; subst.
      apply in_map_iff. exists (u, v). split; [reflexivity|]. apply IH. reflexivity.
Qed.

Lemma leaf_sm_spec : forall l w q (k : K), leaf_sm l w q k = true <->
  exists u v q', w = u ++ v /\ step_ok q l u q' /\ k v q' = true.
Proof.
  intros l w q k. unfold Spec.leaf_sm, step_ok. destruct (is_closed q) eqn:Ec.
  { split; [discriminate|]. intros [u [v [q' [_ [[Hc _] _]]]]]. discriminate. }
  destruct l as [ci s| |neg ar| |lz|root].
  - split.
    + destruct (Regex.lit_match orbit ci s w) as [w'|] eqn:E; [|discriminate]. intros Hk.
      destruct (lit_match_sound orbit _ _ _ _ E) as [u [-> Hu]]. exists u, w', QMid. repeat split; assumption.
    + intros [u [v [q' [-> [[_ [Hp ->]] Hk]]]]]. cbn [Spec.leaf_piece] in Hp. rewrite (lit_match_complete orbit ci s u v Hp). exact Hk.
  - split.
    + destruct w as [|c w']; [discriminate|]. intros H. apply andb_prop in H. destruct H as [Hc Hk]. apply N.eqb_eq in Hc. subst c.
      exists [SEP], w', QMid. repeat split; try reflexivity. exact Hk.
    + intros [u [v [q' [-> [[_ [Hp ->]] Hk]]]]]. cbn [Spec.leaf_piece] in Hp. subst u. cbn [app]. rewrite N.eqb_refl. exact Hk.
  - split.
    + destruct w as [|c w']; [discriminate|]. intros H. apply andb_prop in H. destruct H as [Hc Hk].
      exists [c], w', QMid. repeat split; try reflexivity; [exists c; split; [reflexivity|exact Hc]|exact Hk].
    + intros [u [v [q' [-> [[_ [[c [-> Hc]] ->]] Hk]]]]]. cbn [app]. rewrite Hc. exact Hk.
  - split.
    + destruct w as [|c w']; [discriminate|]. intros H. apply andb_prop in H. destruct H as [Hc Hk].
      exists [c], w', QMid. repeat split; try reflexivity; [|exact Hk]. exists c. split; [reflexivity|].
      apply negb_true_iff, N.eqb_neq in Hc. exact Hc.
    + intros [u [v [q' [-> [[_ [[c [-> Hc]] ->]] Hk]]]]]. cbn [app]. apply N.eqb_neq in Hc. rewrite Hc. exact Hk.
  - split.
    + intros H. apply existsb_exists in H. destruct H as [[u v] [Hin H]]. apply splits_spec in Hin. apply andb_prop in H.
      destruct H as [Hn Hk]. exists u, v, QMid. repeat split; assumption.
    + intros [u [v [q' [-> [[_ [Hp ->]] Hk]]]]]. apply existsb_exists. exists (u, v). split; [apply splits_spec; reflexivity|].
      cbn [fst snd Spec.leaf_piece] in *. rewrite Hp, Hk. reflexivity.
  - split.
    + intros H. apply existsb_exists in H. destruct H as [[u v] [Hin H]]. apply splits_spec in Hin. cbn [fst snd] in H.
      apply orb_prop in H. destruct H as [H|H]; apply andb_prop in H; destruct H as [Hp Hk].
      * exists u, v, QClosed. repeat split; try assumption. left. split; [exact Hp|reflexivity].
      * exists u, v, QNeed. repeat split; try assumption. right. split; [exact Hp|reflexivity].
    + intros [u [v [q' [-> [[_ Hst] Hk]]]]]. apply existsb_exists. exists (u, v). split; [apply splits_spec; reflexivity|].
      cbn [fst snd]. destruct Hst as [[Hp ->]|[Hp ->]]; rewrite Hp, Hk; cbn; [reflexivity|apply orb_true_r].
Qed.

(* a step consumes nothing and leaves the state alone, or lowers 2 * text + rank of the state: the bound [Spec.sm] puts on
   optional iterations comes from here *)
Definition rank (q : fstate) : nat := match q with QStart => 3 | QNeed => 2 | QMid => 1 | QClosed => 0 end.

Lemma step_progress : forall q a u q1, step_ok q a u q1 -> (u = [] /\ q1 = q) \/ rank q1 + 1 <= 2 * length u + rank q.
Proof.
  intros q a u q1 Hst. assert (Hc : is_closed q = false) by apply Hst.
  assert (Hr : 1 <= rank q) by (destruct q; cbn in *; try lia; discriminate).
  destruct u as [|c u].
  - destruct (tree_or_plain a) as [[root ->]|Ha].
    + destruct Hst as [_ [[_ ->]|[Hp ->]]]; [right; cbn; lia|].
      unfold tree_piece in Hp. cbn [starts_sep ends_sep rev is_nil andb orb] in Hp. destruct q; cbn in *; try discriminate; right; lia.
    + apply (step_ok_plain q a [] q1 false false Ha) in Hst. destruct Hst as [_ [_ ->]].
      destruct q; cbn in *; try discriminate; try (right; lia); left; split; reflexivity.
  - right. cbn [length]. destruct Hst as [_ Hst].
    assert (rank q1 <= 2) by (destruct a; [destruct Hst as [_ ->]..|destruct Hst as [[_ ->]|[_ ->]]]; cbn; lia). lia.
Qed.

Lemma scan_progress : forall q x u q1, Scan q x u q1 -> (u = [] /\ q1 = q) \/ rank q1 + 1 <= 2 * length u + rank q.
Proof.
  intros q x u q1 H. induction H as [q|q a x u v q1 q2 Hst _ IH]; [left; split; reflexivity|].
  apply step_progress in Hst. rewrite app_length. destruct Hst as [[-> ->]|Hs], IH as [[-> ->]|Hi]; cbn [length app] in *.
  - left. split; reflexivity.
  - right. lia.
  - right. lia.
  - right. lia.
Qed.

(* iterations beyond the first [r] that consume nothing and leave the state alone can be dropped: what remains beyond
   them is bounded by the potential, which no iteration raises *)
Lemma normalise : forall (BX : list leaf -> Prop) rest r q u q', Forall BX rest -> Scan q (concat rest) u q' -> r <= length rest ->
  exists rest', Forall BX rest' /\ Scan q (concat rest') u q' /\ r <= length rest' <= r + (2 * length u + rank q) /\ length rest' <= length rest.
Proof.
  intros BX. induction rest as [|x rest IH]; intros r q u q' HF Hs Hr.
  - exists []. split; [constructor|]. split; [exact Hs|]. cbn in *. lia.
  - inversion HF as [|? ? Hx HF']; subst. cbn [concat] in Hs. apply scan_app in Hs. destruct Hs as [u1 [u2 [q1 [-> [H1 H2]]]]].
    destruct (IH (pred r) _ _ _ HF' H2) as [rest' [HF2 [Hs2 [Hb Hl]]]]; [cbn [length] in Hr; lia|].
    (* the iteration is dropped if it is optional and changes nothing; otherwise it pays for itself *)
    assert (Hcase : (r = 0 /\ u1 = [] /\ q1 = q) \/ 2 * length u2 + rank q1 + (1 - r) <= 2 * length (u1 ++ u2) + rank q).
    { rewrite app_length. destruct (scan_progress _ _ _ _ H1) as [[-> ->]|Hp], r; cbn [length]; [left; auto|right; lia..]. }
    destruct Hcase as [[-> [-> ->]]|Hpot].
    + exists rest'. split; [exact HF2|]. split; [exact Hs2|]. cbn [length pred app] in *. lia.
    + exists (x :: rest'). split; [constructor; assumption|]. cbn [concat length]. split; [|lia].
      apply scan_app. exists u1, u2, q1. repeat split; assumption.
Qed.

(* [cps_ok f X]: the scanner [f], in continuation-passing style, scans exactly the sequences in [X] *)
Definition cps_ok (f : str -> fstate -> K -> bool) (X : list leaf -> Prop) : Prop :=
  forall w q (k : K), f w q k = true <-> exists x u v q', X x /\ w = u ++ v /\ Scan q x u q' /\ k v q' = true.

Lemma cps_ret : forall (k : K) w q, k w q = true <-> exists u v q', w = u ++ v /\ Scan q [] u q' /\ k v q' = true.
Proof.
  intros k w q. split.
  - intros Hk. exists [], w, q. split; [reflexivity|]. split; [constructor|exact Hk].
  - intros [u [v [q' [-> [Hs Hk]]]]]. inversion Hs; subst. exact Hk.
Qed.

Lemma cps_seq : forall f X (k' : K) Y (k : K), cps_ok f X ->
  (forall w q, k' w q = true <-> exists y u v q', Y y /\ w = u ++ v /\ Scan q y u q' /\ k v q' = true) ->
  forall w q, f w q k' = true <->
    exists x y u v q', X x /\ Y y /\ w = u ++ v /\ Scan q (x ++ y) u q' /\ k v q' = true.
Proof.
  intros f X k' Y k Hf Hk' w q. rewrite (Hf w q k'). split.
  - intros [x [u [v [q1 [Hx [-> [Hs Hr]]]]]]]. apply Hk' in Hr. destruct Hr as [y [u2 [v2 [q2 [Hy [-> [Hs2 Hk]]]]]]].
    exists x, y, (u ++ u2), v2, q2. split; [exact Hx|]. split; [exact Hy|]. split; [apply app_assoc|]. split; [|exact Hk].
    apply scan_app. exists u, u2, q1. repeat split; assumption.
  - intros [x [y [u [v [q' [Hx [Hy [-> [Hs Hk]]]]]]]]]. apply scan_app in Hs. destruct Hs as [u1 [u2 [q1 [-> [H1 H2]]]]].
    exists x, u1, (u2 ++ v), q1. split; [exact Hx|]. split; [apply eq_sym, app_assoc|]. split; [exact H1|].
    apply Hk'. exists y, u2, v, q'. repeat split; assumption.
Qed.

Section Rep.
Variable body : str -> fstate -> K -> bool.
Variable BX : list leaf -> Prop.
Hypothesis Hbody : cps_ok body BX.

Definition iterated (lo hi : nat) (z : list leaf) : Prop := exists xs, lo <= length xs <= hi /\ Forall BX xs /\ z = concat xs.

Lemma iterated_inv : forall lo hi z,
  iterated lo (S hi) z <-> (lo = 0 /\ z = []) \/ exists x y, BX x /\ iterated (pred lo) hi y /\ z = x ++ y.
Proof.
  intros lo hi z. split.
  - intros [[|x xs] [Hl [HF ->]]]; cbn [length] in Hl; [left; split; [lia|reflexivity]|right].
    inversion HF as [|? ? Hx HF']; subst.
    exists x, (concat xs). split; [exact Hx|]. split; [|reflexivity]. exists xs. split; [lia|]. split; [exact HF'|reflexivity].
  - intros [[-> ->]|[x [y [Hx [[xs [Hl [HF ->]]] ->]]]]].
    + exists []. split; [cbn; lia|]. split; [constructor|reflexivity].
    + exists (x :: xs). cbn [length]. split; [lia|]. split; [constructor; assumption|reflexivity].
Qed.

Lemma rep_opt_spec : forall o, cps_ok (rep_opt body o) (iterated 0 o).
Proof.
  induction o as [|o IH]; intros w q k; cbn [rep_opt]; rewrite orb_true_iff, cps_ret.
  - split.
    + intros [[u [v [q' H]]]|H]; [|discriminate]. exists [], u, v, q'. split; [|exact H].
      exists []. split; [cbn; lia|]. split; [constructor|reflexivity].
    + intros [z [u [v [q' [[[|? ?] [Hl [_ ->]]] H]]]]]; [|cbn in Hl; lia]. left. exists u, v, q'. exact H.
  - rewrite (cps_seq body BX _ (iterated 0 o) k Hbody (fun w' q' => IH w' q' k)). split.
    + intros [[u [v [q' H]]]|[x [y [u [v [q' [Hx [Hy H]]]]]]]].
      * exists [], u, v, q'. split; [apply iterated_inv; left; split; reflexivity|exact H].
      * exists (x ++ y), u, v, q'. split; [apply iterated_inv; right; exists x, y; auto|exact H].
    + intros [z [u [v [q' [Hz H]]]]]. apply iterated_inv in Hz. destruct Hz as [[_ ->]|[x [y [Hx [Hy ->]]]]].
      * left. exists u, v, q'. exact H.
      * right. exists x, y, u, v, q'. auto.
Qed.

Lemma rep_req_spec : forall r o, cps_ok (rep_req body r o) (iterated r (r + o)).
Proof.
  induction r as [|r IH]; intros o w q k; cbn [rep_req]; [apply rep_opt_spec|].
  rewrite (cps_seq body BX _ (iterated r (r + o)) k Hbody (fun w' q' => IH o w' q' k)). split.
  - intros [x [y [u [v [q' [Hx [Hy H]]]]]]]. exists (x ++ y), u, v, q'. split; [|exact H].
    apply (iterated_inv (S r) (r + o)). right. exists x, y. auto.
  - intros [z [u [v [q' [Hz H]]]]]. apply (iterated_inv (S r) (r + o)) in Hz. destruct Hz as [[Hr _]|[x [y [Hx [Hy ->]]]]]; [discriminate|].
    exists x, y, u, v, q'. auto.
Qed.
End Rep.

Lemma rank_le : forall q, rank q <= 3. Proof. destruct q; cbn; lia. Qed.

Theorem sm_spec : forall t, cps_ok (sm t) (Expands t).
Proof.
  induction t as [sp l|sp bs IH|sp ts IH|sp b lo hi IH] using tok_ind'; intros w q k.
  - cbn [Spec.sm]. rewrite leaf_sm_spec. split.
    + intros [u [v [q' [-> [Hs Hk]]]]]. exists [l], u, v, q'. split; [constructor|]. split; [reflexivity|]. split; [|exact Hk].
      rewrite <- (app_nil_r u). econstructor; [exact Hs|constructor].
    + intros [x [u [v [q' [Hx [-> [Hs Hk]]]]]]]. apply expands_leaf in Hx. subst x.
      inversion Hs as [|? ? ? u1 v1 q1 ? Hst Hr]; subst. inversion Hr; subst.
      rewrite app_nil_r. exists u1, v, q'. split; [reflexivity|]. split; [exact Hst|exact Hk].
  - cbn [Spec.sm]. rewrite existsb_exists. rewrite Forall_forall in IH. split.
    + intros [b [Hin H]]. apply (IH b Hin) in H. destruct H as [x [u [v [q' [Hx H]]]]].
      exists x, u, v, q'. split; [eapply E_alt; eassumption|exact H].
    + intros [x [u [v [q' [Hx H]]]]]. apply expands_alt in Hx. destruct Hx as [b [Hin Hb]]. exists b. split; [exact Hin|].
      apply (IH b Hin). exists x, u, v, q'. split; [exact Hb|exact H].
  - cbn [Spec.sm]. revert w q. induction IH as [|t0 ts' Ht0 _ IHts]; intros w q.
    + rewrite cps_ret. split.
      * intros [u [v [q' H]]]. exists [], u, v, q'. split; [apply expands_cat_nil; reflexivity|exact H].
      * intros [x [u [v [q' [Hx H]]]]]. apply expands_cat_nil in Hx. subst x. exists u, v, q'. exact H.
    + rewrite (cps_seq (sm t0) (Expands t0) _ (Expands (TCat sp ts')) k Ht0 IHts). split.
      * intros [x [y [u [v [q' [Hx [Hy H]]]]]]]. exists (x ++ y), u, v, q'. split; [apply expands_cat_cons; exists x, y; auto|exact H].
      * intros [z [u [v [q' [Hz H]]]]]. apply expands_cat_cons in Hz. destruct Hz as [x [y [Hx [Hy ->]]]]. exists x, y, u, v, q'. auto.
  - cbn [Spec.sm]. rewrite andb_true_iff. rewrite (rep_req_spec (sm b) (Expands b) IH _ _ w q k). split.
    + intros [Hord [z [u [v [q' [[xs [Hl [HF ->]]] [-> H]]]]]]]. exists (concat xs), u, v, q'. split; [|split; [reflexivity|exact H]].
      constructor; [|exact HF]. unfold in_bounds. split; [lia|]. destruct hi as [h|]; [|exact I].
      apply N.leb_le in Hord. lia.
    + intros [x [u [v [q' [Hx [-> [Hs Hk]]]]]]]. apply expands_rep in Hx. destruct Hx as [xs [[Hlo Hhi] [HF ->]]]. split.
      * destruct hi as [h|]; [apply N.leb_le; lia|reflexivity].
      * (* [sm] tries at most 2 * length w + 4 optional iterations: [normalise] drops those that change nothing *)
        destruct (normalise (Expands b) xs (N.to_nat lo) _ _ _ HF Hs) as [xs' [HF' [Hs' [Hb Hl]]]]; [lia|].
        exists (concat xs'), u, v, q'. split; [|split; [reflexivity|split; [exact Hs'|exact Hk]]].
        exists xs'. split; [|split; [exact HF'|reflexivity]]. split; [apply Hb|].
        pose proof (rank_le q). rewrite app_length. destruct hi as [h|]; lia.
Qed.

Theorem spec_match_spec : forall t w, spec_match orbit t w = true <-> Lang t w.
Proof.
  intros t w. unfold Spec.spec_match, Spec.Lang. split.
  - intros H. apply (proj1 (sm_spec t _ _ _)) in H. destruct H as [x [u [v [q' [Hx [-> [Hs Hk]]]]]]].
    apply andb_prop in Hk. destruct Hk as [Hv Hq]. destruct v; [|discriminate]. rewrite app_nil_r.
    exists x. split; [exact Hx|]. apply scan_lang. exists q'. split; [exact Hs|]. intros ->. discriminate.
  - intros [x [Hx Hm]]. apply scan_lang in Hm. destruct Hm as [q' [Hs Hn]]. apply (proj2 (sm_spec t _ _ _)). exists x, w, [], q'. split; [exact Hx|].
    split; [symmetry; apply app_nil_r|]. split; [exact Hs|]. destruct q'; try reflexivity. congruence.
Qed.

End SpecMatch.
