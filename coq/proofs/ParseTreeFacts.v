(* ParseTreeFacts.v -- the literals of every token tree the parser produces are separator-free: the literal parser stops at a
   separator, and the other leaf parsers read no literal. *)
From WaxModel Require Import Base Token Spec Parse.
From WaxProofs Require Import SpecFacts ParseRel PruneFacts.

Definition leaf_lit_nosep (l : leaf) : bool := match l with LLit _ s => nosep s | _ => true end.

Lemma lit_chars_nosep : forall s t rest, lit_chars s = Some (t, rest) -> nosep t = true.
Proof.
  assert (Hns : forall c t, (c =? SEP)%N = false -> nosep t = true -> nosep (c :: t) = true).
  { intros c t Hc Ht. cbn [nosep forallb]. fold (nosep t). rewrite Hc, Ht. reflexivity. }
  apply lit_chars_ind.
  - reflexivity.
  - reflexivity.
  - intros d s t rest Hd IH. apply Hns; [|exact IH]. destruct (N.eqb_spec d SEP) as [->|]; [discriminate Hd|reflexivity].
  - intros c s t rest _ Hc IH. apply Hns; [|exact IH]. destruct (N.eqb_spec c SEP) as [->|]; [discriminate Hc|reflexivity].
Qed.

Lemma p_literal_nosep : forall i l i', p_literal i = Some (l, i') -> leaf_lit_nosep l = true.
Proof.
  intros i l i' H. apply p_literal_inv in H. destruct H as (text & rest & Hl & _ & -> & _). eapply lit_chars_nosep. exact Hl.
Qed.

Lemma p_wildcard_lit_nosep : forall tm i l i', p_wildcard tm i = Some (l, i') -> leaf_lit_nosep l = true.
Proof.
  intros tm i l i' H. apply p_wildcard_inv in H.
  destruct H as [(r & _ & -> & _)|[(root & i1 & r & _ & _ & -> & _)|(c & r & _ & [[_ ->]|[_ ->]] & _)]]; reflexivity.
Qed.

Lemma p_class_lit_nosep : forall i l i', p_class i = Some (l, i') -> leaf_lit_nosep l = true.
Proof. intros i l i' H. apply p_class_inv in H. destruct H as (neg & archs & c & -> & _). reflexivity. Qed.

Theorem parse_lits_nosep : forall e t, parse e = ParseOk t -> lits_nosep t = true.
Proof.
  apply (parse_tree_inv (fun t => lits_nosep t = true)).
  - intros tm i l i' Hl. change (leaf_lit_nosep l = true).
    destruct Hl; [eapply p_literal_nosep|eapply p_wildcard_lit_nosep|eapply p_class_lit_nosep|reflexivity]; eassumption.
  - intros sp b lo hi i1 i2 _ Hb _. exact Hb.
  - intros sp bs _ _ Hbs. apply forallb_Forall. exact Hbs.
  - intros tm i ts i' sp _ _ _ Hts. apply forallb_Forall. exact Hts.
  - reflexivity.
Qed.
