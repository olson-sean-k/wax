(* ParseShape.v -- the shape of every parsed tree: the members of a concatenation are leaves, alternations or repetitions (never
   concatenations), the branches of an alternation and the body of a repetition are concatenations.  The classes of trees on which the
   analyses are proved sound ask this shape of the trees they hold; [all_sh_shp] is the list step of every bridge from [sh] into one. *)
From WaxModel Require Import Base Token Parse Glob.
From WaxProofs Require Import ParseRel.

Fixpoint sh (t : tok) : Prop :=
  match t with
  | TLeaf _ _ => True
  | TAlt _ bs => (fix go (l : list tok) : Prop := match l with [] => True | x :: l' => (is_cat x = true /\ sh x) /\ go l' end) bs
  | TCat _ ts => (fix go (l : list tok) : Prop := match l with [] => True | x :: l' => (is_cat x = false /\ sh x) /\ go l' end) ts
  | TRep _ b _ _ => is_cat b = true /\ sh b
  end.

(* what [sh] asks of the branches of an alternation ([c] is true) and of the members of a concatenation ([c] is false) *)
Definition all_sh (c : bool) (l : list tok) : Prop :=
  (fix go (l : list tok) : Prop := match l with [] => True | x :: l' => (is_cat x = c /\ sh x) /\ go l' end) l.

Lemma all_sh_Forall : forall c l, Forall (fun t => is_cat t = c) l -> Forall sh l -> all_sh c l.
Proof.
  intros c l Hc. induction Hc as [|x l Hx _ IH]; intros Hs; [exact I|].
  split; [split; [exact Hx|exact (Forall_inv Hs)]|exact (IH (Forall_inv_tail Hs))].
Qed.

Theorem parse_sh : forall e t, parse e = ParseOk t -> sh t.
Proof.
  apply parse_tree_inv.
  - intros tm i l i' _. exact I.
  - intros sp b lo hi i1 i2 Hc Hb _. split; assumption.
  - intros sp bs _ Hc Hbs. exact (all_sh_Forall true bs Hc Hbs).
  - intros tm i ts i' sp _ _ Hc Hts. exact (all_sh_Forall false ts Hc Hts).
  - exact I.
Qed.

Lemma built_sh : forall e t r, build e = BuildOk t r -> sh t.
Proof. intros e t r Hb. exact (parse_sh e t (proj1 (build_ok_inv e t r Hb))). Qed.

(* [cls] is a class of trees, [shape] the shape that [sh] gives them; [g] is the test the shape makes of a branch ([is_cat]) or
   of a member (its negation) *)
Lemma all_sh_shp : forall c (g cls shape : tok -> bool) l, (forall x, is_cat x = c -> g x = true) ->
  Forall (fun x => sh x -> cls x = true -> shape x = true) l -> all_sh c l -> forallb cls l = true ->
  forallb (fun x => g x && shape x) l = true.
Proof.
  intros c g cls shape l Hg IH. induction IH as [|x l Hx _ IHl]; intros Hs Hr; [reflexivity|]. destruct Hs as [[Hc Hsx] Hs'].
  cbn [forallb] in *. apply andb_prop in Hr. destruct Hr as [Hr1 Hr2]. rewrite (Hg x Hc), (Hx Hsx Hr1), (IHl Hs' Hr2). reflexivity.
Qed.

Lemma cat_is_branch : forall x, is_cat x = true -> is_branch x = true.
Proof. intros [| | |] H; try discriminate H; reflexivity. Qed.
