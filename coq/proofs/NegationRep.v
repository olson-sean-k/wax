(* NegationRep.v -- C03 for negated globs with repetitions: for every glob that builds, whose repetitions are written out at least once,
   are bounded above or hold a bounded token, and have bodies that begin and end with a leaf, and that cannot end with a separator,
   `not` is the per-entry filter; each `Always` verdict's promise is proved (C09 with repetitions), the adjacency facts come from C06
   with repetitions.  A glob without repetitions is in that class, and so is each member of a combinator of such globs. *)
From WaxModel Require Import Base Token Spec Variance Fold Query Glob.
From WaxProofs Require Import AlgebraFacts SpecFacts OwnedFacts ComposeFacts WalkFacts NegationFacts NegationWalkFacts.
From WaxProofs Require Import DepthTreeFacts DepthAltFacts BuiltFacts BuiltNonempty ParseRel ParseShape RuleZomFacts NegationAltFacts.
From WaxProofs Require ExhaustRepFacts ExhaustOptFacts RuleZomRep.
Local Open Scope nat_scope.

Definition Qrep (a : tok) : Prop :=
  tok_bounds_ok a /\ ExhaustRepFacts.frp a = true /\ nonempty_branches a = true /\
  forall x, Expands a x -> chain_ok false x = true /\ zchain false x = true /\ last_opt x <> Some LSep.

Lemma Qrep_branch : forall sp bs b, Qrep (TAlt sp bs) -> In b bs -> Qrep b.
Proof.
  intros sp bs b [Hb [Hf [Hn Hx]]] Hin.
  apply tok_bounds_ok_alt in Hb. apply nonempty_branches_alt in Hn as [_ Hn]. rewrite Forall_forall in Hb, Hn.
  split; [exact (Hb b Hin)|]. split; [exact (proj2 (ExhaustRepFacts.frp_alt sp bs Hf b Hin))|]. split; [exact (Hn b Hin)|].
  intros x Hxb. exact (Hx x (E_alt sp bs b x Hin Hxb)).
Qed.

Lemma Qrep_cat : forall sp b, Qrep (TCat sp [b]) -> Qrep b.
Proof.
  intros sp b [Hb [Hf [Hn Hx]]]. apply tok_bounds_ok_cat in Hb. apply nonempty_branches_cat in Hn as [_ Hn].
  split; [exact (Forall_inv Hb)|]. split; [exact (ExhaustRepFacts.frp_cat sp [b] Hf b (or_introl eq_refl))|]. split; [exact (Forall_inv Hn)|].
  intros x Hxb. apply Hx, expands_single_cat, Hxb.
Qed.

Lemma rep_range_one : forall lo hi, rep_range lo hi = Inv 1%N -> lo = 1%N /\ hi = Some 1%N.
Proof. intros lo hi. apply rep_range_inv_bounds. Qed.

Lemma Qrep_rep : forall sp b, Qrep (TRep sp b 1 (Some 1%N)) -> Qrep b.
Proof.
  intros sp b [Hb [Hf [Hn Hx]]]. apply nonempty_branches_rep in Hn as [Hn _].
  destruct (ExhaustRepFacts.frp_rep sp b _ _ Hf) as (_ & _ & _ & Hfb).
  split; [exact (proj1 Hb)|]. split; [exact Hfb|]. split; [exact Hn|].
  intros x Hxb. apply Hx, expands_rep_one, Hxb.
Qed.

Lemma alternatives_Qrep : forall fuel queue, Forall Qrep queue -> Forall Qrep (alternatives_loop fuel queue).
Proof. exact (alternatives_inherit Qrep Qrep_branch Qrep_cat Qrep_rep). Qed.

Lemma Qrep_alt : forall sp bs, bs <> [] -> Forall (fun b => Qrep b /\ is_cat b = true) bs -> Qrep (TAlt sp bs).
Proof.
  intros sp bs Hne H. rewrite Forall_forall in H. split; [apply tok_bounds_ok_alt, Forall_forall; intros b Hb; apply (H b Hb)|]. split; [|split].
  - cbn [ExhaustRepFacts.frp]. apply forallb_forall. intros b Hb. destruct (H b Hb) as [[_ [Hf _]] Hc]. rewrite Hf. destruct b; (discriminate || reflexivity).
  - apply nonempty_branches_alt. split; [exact Hne|]. apply Forall_forall. intros b Hb. apply (H b Hb).
  - intros x Hx. apply expands_alt in Hx. destruct Hx as [b [Hin Hb]]. destruct (H b Hin) as [[_ [_ [_ Hxb]]] _]. exact (Hxb x Hb).
Qed.

(* re-annotation keeps what an alternative inherits.  `frp_respan` is stated for trees without repetitions only: the TRep case
   would need `bounded_branch (respan g b) = bounded_branch b`, and its one user, `negation_of_any_of_built_rep_free_globs`, has
   `rep_free` *)
Lemma forallb_respan : forall (p : tok -> bool) g l, Forall (fun t => p (respan g t) = p t) l -> forallb p (map (respan g) l) = forallb p l.
Proof. intros p g l H. induction H as [|t l Ht _ IH]; [reflexivity|]. cbn [map forallb]. rewrite Ht, IH. reflexivity. Qed.

Lemma nonempty_respan : forall g t, nonempty_branches (respan g t) = nonempty_branches t.
Proof.
  intros g. induction t as [sp l|sp bs IH|sp ts IH|sp b lo hi IH] using tok_ind'; cbn [respan nonempty_branches]; try reflexivity.
  - rewrite (forallb_respan nonempty_branches g bs IH). destruct bs; reflexivity.
  - rewrite (forallb_respan nonempty_branches g ts IH). destruct ts; reflexivity.
  - rewrite IH. reflexivity.
Qed.

Lemma frp_respan : forall g t, rep_free t = true -> ExhaustRepFacts.frp (respan g t) = ExhaustRepFacts.frp t.
Proof.
  intros g. induction t as [sp l|sp bs IH|sp ts IH|sp b lo hi IH] using tok_ind'; cbn [respan rep_free ExhaustRepFacts.frp]; intros Hr; try (reflexivity || discriminate).
  - induction IH as [|t l Ht _ IHl]; [reflexivity|]. cbn [forallb map] in *. apply andb_prop in Hr. rewrite (Ht (proj1 Hr)), (IHl (proj2 Hr)). destruct t; reflexivity.
  - induction IH as [|t l Ht _ IHl]; [reflexivity|]. cbn [forallb map] in *. apply andb_prop in Hr. rewrite (Ht (proj1 Hr)), (IHl (proj2 Hr)). reflexivity.
Qed.

Lemma Qrep_respan : forall g t, rep_free t = true -> Qrep t -> Qrep (respan g t).
Proof.
  intros g t Hr [Hb [Hf [Hn Hx]]]. split; [apply bounds_respan; exact Hb|]. rewrite (frp_respan g t Hr), nonempty_respan.
  repeat split; try assumption; apply Hx, (expands_respan g); assumption.
Qed.

Lemma built_Qrep : forall e t r, build e = BuildOk t r ->
  ExhaustRepFacts.required_reps t = true -> RuleZomRep.rep_class t = true -> RuleZomRep.shz t = true -> may_end_sep t = false -> Qrep t.
Proof.
  intros e t r Hb Hrq Hrc Hz Hms. destruct (build_ok_inv e t r Hb) as [Ep _].
  pose proof (parse_sh e t Ep) as Hsh. pose proof (built_nonempty_branches e t r Hb) as Hne.
  split; [exact (built_bounds_ok e t r Hb)|]. split; [exact (ExhaustRepFacts.sh_frp t Hsh Hrq)|]. split; [exact Hne|].
  intros x Hx. split; [exact (RuleZomRep.built_no_adjacent_boundaries_r e t r Hb Hrc x Hx)|]. split; [exact (RuleZomRep.built_no_adjacent_zoms_r e t r Hb Hrc Hz x Hx)|].
  exact (RuleZomRep.no_trailing_sep_r t Hne (RuleZomRep.sh_shr t Hsh Hrc) Hms x Hx).
Qed.

Lemma built_rep_free_Qrep : forall e t r, build e = BuildOk t r -> rep_free t = true -> may_end_sep t = false -> Qrep t.
Proof.
  intros e t r Hb Hrf Hms.
  apply (built_Qrep e t r); auto using ExhaustRepFacts.rep_free_required_reps, RuleZomRep.rep_free_rep_class, RuleZomRep.rep_free_shz.
Qed.

Section NegationRep.
Variable orbit : char -> list char.
Notation Lang := (Spec.Lang orbit).

Lemma Qrep_sound : forall a, Qrep a -> sound_alt orbit a.
Proof.
  intros a [Hb [Hf [Hn Hx]]]. split; [exact Hb|]. intros He w z Hz. exact (ExhaustOptFacts.frp_always_sound_lang orbit a w z Hf Hn He Hz Hx).
Qed.

Lemma negation_of_Qrep : forall t ext nxt exh nonexh, Qrep t ->
  not_partition t = Ok (ext, nxt) -> decides orbit exh ext -> decides orbit nonexh nxt -> opt_match exh [] = false ->
  not_filters orbit t exh nonexh.
Proof.
  intros t ext nxt exh nonexh HQ. apply negation_walk_sound_alts. eapply Forall_impl; [exact Qrep_sound|].
  exact (into_alternatives_inherit Qrep Qrep_branch Qrep_cat Qrep_rep t HQ).
Qed.

Theorem negation_of_any_built_glob_with_required_reps : forall e t r ext nxt exh nonexh,
  build e = BuildOk t r -> ExhaustRepFacts.required_reps t = true -> RuleZomRep.rep_class t = true -> RuleZomRep.shz t = true -> may_end_sep t = false ->
  not_partition t = Ok (ext, nxt) -> decides orbit exh ext -> decides orbit nonexh nxt -> opt_match exh [] = false ->
  not_filters orbit t exh nonexh.
Proof. intros e t r ext nxt exh nonexh Hb Hrq Hrc Hz Hms. exact (negation_of_Qrep t ext nxt exh nonexh (built_Qrep e t r Hb Hrq Hrc Hz Hms)). Qed.

Lemma negation_of_any_built_rep_free_glob : forall e t r ext nxt exh nonexh,
  build e = BuildOk t r -> rep_free t = true -> may_end_sep t = false ->
  not_partition t = Ok (ext, nxt) -> decides orbit exh ext -> decides orbit nonexh nxt -> opt_match exh [] = false ->
  not_filters orbit t exh nonexh.
Proof.
  intros e t r ext nxt exh nonexh Hb Hrf Hms. exact (negation_of_Qrep t ext nxt exh nonexh (built_rep_free_Qrep e t r Hb Hrf Hms)).
Qed.

(* the negation of a combinator of built globs without repetitions: the `any` of concatenations that inherit, re-annotated *)
Theorem negation_of_any_of_built_rep_free_globs : forall es ts t ext nxt exh nonexh,
  Forall2 (fun e t0 => exists r, build e = BuildOk t0 r /\ is_cat t0 = true /\ rep_free t0 = true /\ may_end_sep t0 = false) es ts -> ts <> [] ->
  any_tree ts = Ok t ->
  not_partition t = Ok (ext, nxt) -> decides orbit exh ext -> decides orbit nonexh nxt -> opt_match exh [] = false ->
  not_filters orbit t exh nonexh.
Proof.
  intros es ts t ext nxt exh nonexh Hall Hne Hany.
  assert (HQs : Forall (fun t0 => Qrep t0 /\ rep_free t0 = true /\ is_cat t0 = true) ts).
  { clear Hany Hne. induction Hall as [|e t0 es ts [r [Hb [Hc [Hrf Hms]]]] _ IH]; constructor; [|exact IH]. split; [|split; assumption].
    exact (built_rep_free_Qrep e t0 r Hb Hrf Hms). }
  rewrite any_tree_ok in Hany by (eapply Forall_impl; [|exact HQs]; intros a [[Ha _] _]; exact Ha). inversion Hany; subst t.
  apply negation_of_Qrep, Qrep_alt; [destruct ts; [congruence|discriminate]|]. apply Forall_map. eapply Forall_impl; [|exact HQs].
  intros a [HQ [Hrf Hc]]. split; [exact (Qrep_respan _ a Hrf HQ)|rewrite is_cat_respan; exact Hc].
Qed.

End NegationRep.
