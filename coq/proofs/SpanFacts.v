(* SpanFacts.v -- C17: every span the parser attaches to a token, every location of a parse error, the span of every rule error and
   the span of every capture delimits a run of whole characters of the expression ([span_ok]; so it lies within the expression and on
   character boundaries): [parse_spans_ok], [parse_error_spans_ok], [rule_error_span_ok], [capture_spans_ok]. *)
From WaxModel Require Import Base Token Parse Fold Rule Query.
From WaxProofs Require Import ParseFacts ParseRel RuleFacts FuelFacts.

Local Arguments N.add : simpl never.
Local Arguments N.sub : simpl never.

(* [sp] delimits the characters [mid] of [e] *)
Definition span_ok (e : str) (sp : span) : Prop :=
  exists pre mid post, e = pre ++ mid ++ post /\ fst sp = blen pre /\ snd sp = blen mid.

Lemma span_ok_in_bounds : forall e sp, span_ok e sp -> fst sp + snd sp <= blen e.
Proof. intros e [s n] [pre [mid [post [-> [Hs Hn]]]]]. cbn [fst snd] in *. subst. rewrite !blen_app. lia. Qed.

(* the parser's input [i] is a suffix of the expression, at its byte location *)
Definition at_ (e : str) (i : input) : Prop := exists pre, e = pre ++ i_s i /\ i_pos i = blen pre.
(* [i1] is [i0] advanced over the characters [mid] *)
Definition adv_rel (i0 i1 : input) : Prop := exists mid, i_s i0 = mid ++ i_s i1 /\ i_pos i1 = i_pos i0 + blen mid.

Lemma adv_refl : forall i, adv_rel i i.
Proof. intros i. exists []. split; [reflexivity|cbn; lia]. Qed.

(* [adv_rel] with its witness named; advancing over [m1], then over [m2], is what [adv_rel] and, below, [adv_ne] compose by *)
Definition adv_by (mid : str) (i0 i1 : input) : Prop := i_s i0 = mid ++ i_s i1 /\ i_pos i1 = i_pos i0 + blen mid.

Lemma adv_app : forall a b c m1 m2, adv_by m1 a b -> adv_by m2 b c -> adv_by (m1 ++ m2) a c.
Proof. intros a b c m1 m2 [H1 P1] [H2 P2]. split; [rewrite H1, H2; apply app_assoc|rewrite P2, P1, blen_app; lia]. Qed.

Lemma adv_trans : forall a b c, adv_rel a b -> adv_rel b c -> adv_rel a c.
Proof. intros a b c [m1 H1] [m2 H2]. exists (m1 ++ m2). exact (adv_app a b c m1 m2 H1 H2). Qed.

Lemma at_adv : forall e i0 i1, at_ e i0 -> adv_rel i0 i1 -> at_ e i1.
Proof. intros e. exact (adv_trans (init_input e)). Qed.

Lemma mk_span_ok : forall e i0 i1, at_ e i0 -> adv_rel i0 i1 -> span_ok e (mk_span i0 i1).
Proof.
  intros e i0 i1 [pre [He Hp]] [mid [Hs Hq]]. exists pre, mid, (i_s i1). unfold mk_span. cbn [fst snd].
  split; [rewrite He, Hs; reflexivity|]. split; [exact Hp|]. rewrite Hq. lia.
Qed.

Lemma same_text_adv : forall i j, i_s j = i_s i -> i_pos j = i_pos i -> adv_rel i j.
Proof. intros i j Hs Hp. exists []. split; [rewrite Hs; reflexivity|rewrite Hp; cbn; lia]. Qed.

Lemma adv1_rel : forall i c r, i_s i = c :: r -> adv_rel i (adv1 i c r).
Proof. intros i c r H. exists [c]. split; [exact H|]. cbn [adv1 i_pos blen]. lia. Qed.

Lemma tag1_rel : forall c i i', tag1 c i = Some i' -> adv_rel i i'.
Proof.
  intros c i i' H. unfold tag1 in H. destruct (i_s i) as [|d r] eqn:E; [discriminate|].
  destruct (c =? d); [|discriminate]. inversion H; subst. apply adv1_rel. exact E.
Qed.

Lemma set_ci_rel : forall i b, adv_rel i (set_ci i b).
Proof. intros. apply same_text_adv; reflexivity. Qed.
Lemma set_sub_rel : forall i, adv_rel i (set_sub i).
Proof. intros. apply same_text_adv; reflexivity. Qed.

Lemma flag_toggles_rel : forall fuel i any i', flag_toggles fuel i any = Some i' -> adv_rel i i'.
Proof.
  induction fuel as [|f IH]; intros i any i' H; cbn [flag_toggles] in H.
  - destruct any; [|discriminate]. inversion H; subst. apply adv_refl.
  - assert (Hstop : (if any then Some i else None) = Some i' -> adv_rel i i').
    { intros H0. destruct any; [|discriminate]. inversion H0; subst. apply adv_refl. }
    destruct (i_s i) as [|c r] eqn:E; [exact (Hstop H)|].
    destruct (c =? c_i).
    + apply IH in H. eapply adv_trans; [|exact H]. eapply adv_trans; [apply (adv1_rel i c r E)|apply set_ci_rel].
    + destruct (c =? c_minus); [|exact (Hstop H)].
      destruct r as [|c2 r2]; [exact (Hstop H)|]. destruct (c2 =? c_i); [|exact (Hstop H)].
      apply IH in H. eapply adv_trans; [|exact H].
      eapply adv_trans; [apply (adv1_rel i c (c2 :: r2) E)|].
      eapply adv_trans; [apply (adv1_rel _ c2 r2); reflexivity|apply set_ci_rel].
Qed.

Lemma flag_group_rel : forall i i', flag_group i = Some i' -> adv_rel i i'.
Proof.
  intros i i' H. unfold flag_group in H. destruct (i_s i) as [|c1 [|c2 r]] eqn:E; try discriminate.
  destruct ((c1 =? c_lparen) && (c2 =? c_qmark)); [|discriminate].
  destruct (flag_toggles (length r) _ false) as [i2|] eqn:Et; [|discriminate].
  apply flag_toggles_rel in Et. apply tag1_rel in H.
  eapply adv_trans; [apply (adv1_rel i c1 (c2 :: r) E)|]. eapply adv_trans; [apply (adv1_rel _ c2 r); reflexivity|].
  eapply adv_trans; eassumption.
Qed.

Lemma flags_with_state_f_rel : forall fuel i, adv_rel i (flags_with_state_f fuel i).
Proof.
  induction fuel as [|f IH]; intros i; cbn [flags_with_state_f]; [apply adv_refl|].
  destruct (flag_group i) as [i'|] eqn:E; [|apply adv_refl]. eapply adv_trans; [apply flag_group_rel; exact E|apply IH].
Qed.

Lemma flags_with_state_rel : forall i, adv_rel i (flags_with_state i).
Proof. intros. apply flags_with_state_f_rel. Qed.

Definition adv_ne (i0 i1 : input) : Prop := exists mid, mid <> [] /\ adv_by mid i0 i1.

Lemma adv_ne_rel : forall a b, adv_ne a b -> adv_rel a b.
Proof. intros a b [mid [_ H]]. exists mid. exact H. Qed.

Lemma adv_ne_l : forall a b c, adv_ne a b -> adv_rel b c -> adv_ne a c.
Proof.
  intros a b c [m1 [Hne H1]] [m2 H2]. exists (m1 ++ m2). split; [|exact (adv_app a b c m1 m2 H1 H2)].
  destruct m1; [congruence|discriminate].
Qed.

Lemma adv_ne_r : forall a b c, adv_rel a b -> adv_ne b c -> adv_ne a c.
Proof.
  intros a b c [m1 H1] [m2 [Hne H2]]. exists (m1 ++ m2). split; [|exact (adv_app a b c m1 m2 H1 H2)].
  destruct m1; [exact Hne|discriminate].
Qed.

Lemma adv1_ne : forall i c r, i_s i = c :: r -> adv_ne i (adv1 i c r).
Proof. intros i c r H. exists [c]. split; [discriminate|]. split; [exact H|]. cbn [adv1 i_pos blen]. lia. Qed.

Lemma adv_ne_adv : forall i consumed rest, consumed <> [] -> i_s i = consumed ++ rest -> adv_ne i (adv i consumed rest).
Proof. intros i c r Hne H. exists c. split; [exact Hne|]. split; [exact H|reflexivity]. Qed.

Lemma lit_chars_consumed : forall s t rest, lit_chars s = Some (t, rest) -> exists c, s = c ++ rest /\ (length t <= length c)%nat.
Proof.
  apply lit_chars_ind.
  - exists []. split; [reflexivity|apply le_n].
  - intros c s _ _. exists []. split; [reflexivity|apply le_n].
  - intros d s t rest _ [c [-> Hl]]. exists (BSLASH :: d :: c). split; [reflexivity|cbn [length]; lia].
  - intros c s t rest _ _ [c0 [-> Hl]]. exists (c :: c0). split; [reflexivity|cbn [length]; lia].
Qed.

Lemma p_literal_ne : forall i l i', p_literal i = Some (l, i') -> adv_ne i i'.
Proof.
  intros i l i' H. apply p_literal_inv in H. destruct H as (text & rest & Hl & Hne & _ & ->).
  destruct (lit_chars_consumed _ _ _ Hl) as [c [Hc Hlen]]. rewrite Hc, consumed_of_app. apply adv_ne_adv; [|exact Hc].
  destruct c; [|discriminate]. destruct text; [congruence|cbn [length] in Hlen; lia].
Qed.

Lemma p_class_ne : forall i l i', p_class i = Some (l, i') -> adv_ne i i'.
Proof. intros i l i' H. apply p_class_inv in H. destruct H as (neg & archs & c & _ & Hne & Hs & ->). apply adv_ne_adv; assumption. Qed.

Lemma p_class_rel : forall i l i', p_class i = Some (l, i') -> adv_rel i i'.
Proof. intros i l i' H. eapply adv_ne_rel, p_class_ne. exact H. Qed.

Lemma p_wildcard_ne : forall tm i l i', p_wildcard tm i = Some (l, i') -> adv_ne i i'.
Proof.
  intros tm i l i' H. apply p_wildcard_inv in H.
  destruct H as [(r & Hs & _ & ->)|[(root & i1 & r & Hst & Hs1 & _ & Hend)|(c & r & Hs & _ & -> & _)]]; try (apply adv1_ne; exact Hs).
  assert (Hp : adv_rel i i1).
  { destruct Hst as [(r0 & Hs & _ & ->)|(_ & _ & ->)]; [|apply flags_with_state_rel].
    eapply adv_trans; [apply (adv1_rel i SEP r0 Hs)|apply flags_with_state_rel]. }
  cbv zeta in Hend. set (i2 := adv1 (adv1 i1 _ _) _ r) in Hend.
  assert (H2 : adv_ne i i2).
  { eapply adv_ne_r; [exact Hp|]. eapply adv_ne_l; [apply (adv1_ne i1 _ _ Hs1)|apply adv1_rel; reflexivity]. }
  destruct Hend as [[_ ->]|(r3 & Hs3 & ->)]; [exact H2|].
  eapply adv_ne_l; [exact H2|]. eapply adv_trans; [apply flags_with_state_rel|apply adv1_rel; exact Hs3].
Qed.

Lemma p_wildcard_rel : forall tm i l i', p_wildcard tm i = Some (l, i') -> adv_rel i i'.
Proof. intros tm i l i' H. eapply adv_ne_rel, p_wildcard_ne. exact H. Qed.

Lemma p_bounds_rel : forall i b i', p_bounds i = (b, i') -> adv_rel i i'.
Proof.
  intros i [lo hi] i' H. apply p_bounds_inv in H.
  destruct H as [(_ & _ & ->)|(r & Hs & [(_ & _ & ->)|(d & c & _ & _ & Hr & ->)])].
  - apply adv_refl.
  - apply adv1_rel. exact Hs.
  - eapply adv_trans; [apply adv1_rel; exact Hs|]. exists c. split; [exact Hr|reflexivity].
Qed.

Lemma Rleaf_ne : forall tm i l i', Rleaf tm i l i' -> adv_ne i i'.
Proof.
  intros tm i l i' H. eapply adv_ne_r; [apply flags_with_state_rel|]. destruct H as [l j H|l j H|l j H|r H].
  - eapply p_literal_ne. exact H.
  - eapply p_wildcard_ne. exact H.
  - eapply p_class_ne. exact H.
  - apply adv1_ne. exact H.
Qed.

(* from a token's start, over the flags and the opening character, to where its body begins *)
Lemma opened_ne : forall i c r, i_s (flags_with_state i) = c :: r -> adv_ne i (adv1 (flags_with_state i) c r).
Proof. intros i c r H. eapply adv_ne_r; [apply flags_with_state_rel|apply adv1_ne; exact H]. Qed.

Lemma R_adv :
  (forall tm i t i', Rtoken tm i t i' -> adv_ne i i') /\
  (forall tm i ts i', Rtokens tm i ts i' -> adv_rel i i') /\
  (forall i bs i', Rbranches i bs i' -> adv_rel i i') /\
  (forall tm i t i', Rglob tm i t i' -> adv_rel i i').
Proof.
  apply R_ind.
  - intros tm i l i' Hl. eapply Rleaf_ne. exact Hl.
  - intros tm i r body i1 lo hi i2 i3 Hs _ Hg Hb Ht. eapply adv_ne_l; [apply opened_ne; exact Hs|].
    eapply adv_trans; [exact Hg|]. eapply adv_trans; [eapply p_bounds_rel; exact Hb|eapply tag1_rel; exact Ht].
  - intros tm i r bs i1 i2 Hs _ Hb Ht. eapply adv_ne_l; [apply opened_ne; exact Hs|].
    eapply adv_trans; [exact Hb|eapply tag1_rel; exact Ht].
  - intros tm i. apply adv_refl.
  - intros tm i t i1 ts i2 _ Ht _ Hts. eapply adv_trans; [apply adv_ne_rel; exact Ht|exact Hts].
  - intros i b i1 _ Hg. exact Hg.
  - intros i b i1 r bs i2 _ Hg Hs _ Hb. eapply adv_trans; [exact Hg|]. eapply adv_trans; [apply adv1_rel; exact Hs|exact Hb].
  - intros tm i ts i1 _ Hts _ _. eapply adv_trans; [apply set_sub_rel|exact Hts].
Qed.

Lemma Rtoken_ne : forall tm i t i', Rtoken tm i t i' -> adv_ne i i'.
Proof. exact (proj1 R_adv). Qed.
Lemma Rtokens_adv : forall tm i ts i', Rtokens tm i ts i' -> adv_rel i i'.
Proof. exact (proj1 (proj2 R_adv)). Qed.
Lemma Rglob_adv : forall tm i t i', Rglob tm i t i' -> adv_rel i i'.
Proof. exact (proj2 (proj2 (proj2 R_adv))). Qed.

Fixpoint spans_ok (e : str) (t : tok) : Prop :=
  span_ok e (tspan t) /\
  match t with
  | TLeaf _ _ => True
  | TAlt _ bs => (fix go (l : list tok) : Prop := match l with [] => True | x :: l' => spans_ok e x /\ go l' end) bs
  | TCat _ ts => (fix go (l : list tok) : Prop := match l with [] => True | x :: l' => spans_ok e x /\ go l' end) ts
  | TRep _ b _ _ => spans_ok e b
  end.

Lemma spans_ok_list : forall e ts,
  (fix go (l : list tok) : Prop := match l with [] => True | x :: l' => spans_ok e x /\ go l' end) ts <-> Forall (spans_ok e) ts.
Proof. intros e ts. induction ts as [|t ts IH]; [split; constructor|]. rewrite Forall_cons_iff, IH. reflexivity. Qed.

Lemma spans_ok_cat : forall e sp ts, span_ok e sp -> Forall (spans_ok e) ts -> spans_ok e (TCat sp ts).
Proof. intros e sp ts Hs Ha. split; [exact Hs|apply spans_ok_list; exact Ha]. Qed.

Lemma R_spans : forall e,
  (forall tm i t i', Rtoken tm i t i' -> at_ e i -> spans_ok e t) /\
  (forall tm i ts i', Rtokens tm i ts i' -> at_ e i -> Forall (spans_ok e) ts) /\
  (forall i bs i', Rbranches i bs i' -> at_ e i -> Forall (spans_ok e) bs) /\
  (forall tm i t i', Rglob tm i t i' -> at_ e i -> spans_ok e t).
Proof.
  intros e. destruct R_adv as [At [Ats [Ab Ag]]]. apply R_ind.
  - intros tm i l i' Hl Hat. split; [|exact I]. apply mk_span_ok; [exact Hat|apply adv_ne_rel, (Rleaf_ne _ _ _ _ Hl)].
  - intros tm i r body i1 lo hi i2 i3 Hs Hg IH Hb Ht Hat. split.
    + apply mk_span_ok; [exact Hat|]. eapply adv_ne_rel, (At tm), RT_rep; eassumption.
    + apply IH. eapply at_adv; [exact Hat|apply adv_ne_rel, opened_ne; exact Hs].
  - intros tm i r bs i1 i2 Hs Hb IH Ht Hat. split; [|apply spans_ok_list].
    + apply mk_span_ok; [exact Hat|]. eapply adv_ne_rel, (At tm), RT_alt; eassumption.
    + apply IH. eapply at_adv; [exact Hat|apply adv_ne_rel, opened_ne; exact Hs].
  - intros tm i Hat. constructor.
  - intros tm i t i1 ts i2 Ht IHt _ IHts Hat. constructor; [apply IHt; exact Hat|]. apply IHts. eapply at_adv; [exact Hat|apply adv_ne_rel, (At _ _ _ _ Ht)].
  - intros i b i1 _ IH Hat. constructor; [apply IH; exact Hat|constructor].
  - intros i b i1 r bs i2 Hg IHg Hs _ IHb Hat. constructor; [apply IHg; exact Hat|]. apply IHb.
    eapply at_adv; [exact Hat|]. eapply adv_trans; [exact (Ag _ _ _ _ Hg)|apply adv1_rel; exact Hs].
  - intros tm i ts i1 Hts IH _ _ Hat. assert (Hat' : at_ e (set_sub i)) by (eapply at_adv; [exact Hat|apply set_sub_rel]).
    apply spans_ok_cat; [|apply IH; exact Hat']. apply mk_span_ok; [exact Hat'|exact (Ats _ _ _ _ Hts)].
Qed.

Lemma err_span_ok : forall e j, at_ e j -> span_ok e (err_span (i_pos j) (i_s j)).
Proof.
  intros e j [pre [He Hp]]. destruct (i_s j) as [|c r] eqn:E; cbn [err_span].
  - exists pre, [], []. rewrite He. cbn [fst snd blen app]. split; [rewrite app_nil_r; reflexivity|]. split; [exact Hp|reflexivity].
  - exists pre, [c], r. rewrite He. cbn [fst snd blen app]. split; [reflexivity|]. split; [exact Hp|lia].
Qed.

Lemma at_init : forall e, at_ e (init_input e).
Proof. intros e. exists []. split; reflexivity. Qed.

Lemma at_start : forall e, at_ e (set_sub (init_input e)).
Proof. intros e. eapply at_adv; [apply at_init|apply set_sub_rel]. Qed.

(* C17: every span of the token tree of an expression that parses delimits whole characters of the expression *)
Theorem parse_spans_ok : forall e t, parse e = ParseOk t -> spans_ok e t.
Proof.
  intros e t H. apply parse_ok_R in H. destruct H as [[-> ->]|(ts & i1 & Hts & _ & Hend & ->)].
  - split; [|exact I]. exists [], [], []. repeat split.
  - apply spans_ok_cat; [|exact (proj1 (proj2 (R_spans e)) _ _ _ _ Hts (at_start e))].
    destruct (at_adv _ _ _ (at_start e) (Rtokens_adv _ _ _ _ Hts)) as [pre [He Hp]]. rewrite Hend, app_nil_r in He.
    exists [], e, []. cbn [fst snd blen app]. rewrite app_nil_r. split; [reflexivity|]. split; [reflexivity|]. rewrite Hp, He. reflexivity.
Qed.

(* C17: every location of a parse error covers one whole character of the expression, or nothing at its end *)
Theorem parse_error_spans_ok : forall e locs, parse e = ParseErr locs -> Forall (span_ok e) locs.
Proof.
  intros e locs H. unfold parse in H. destruct e as [|c e']; [discriminate|].
  set (e := c :: e') in *.
  destruct (p_tokens (parse_fuel e) TermTop (set_sub (init_input e))) as [[ts i1]| |] eqn:Ep; try discriminate.
  - pose proof (at_adv _ _ _ (at_start e) (Rtokens_adv _ _ _ _ (p_tokens_R _ _ _ _ _ Ep))) as Hat1.
    destruct ts as [|t0 ts'].
    + inversion H; subst. repeat constructor; try exact (err_span_ok e (init_input e) (at_init e)).
      apply err_span_ok. eapply at_adv; [apply at_init|apply flags_with_state_rel].
    + destruct (i_s i1) as [|c1 r1] eqn:Es; [discriminate|]. inversion H; subst.
      constructor; [|constructor]. change (i_pos i1, utf8_len c1) with (err_span (i_pos i1) (c1 :: r1)). rewrite <- Es. apply err_span_ok. exact Hat1.
  - inversion H; subst. constructor.
Qed.

Lemma spans_ok_span : forall e t, spans_ok e t -> span_ok e (tspan t).
Proof. intros e t H. destruct t; cbn [spans_ok] in H; apply H. Qed.

Lemma blen_zero : forall l, blen l = 0 -> l = [].
Proof. intros [|c l] H; [reflexivity|]. cbn [blen] in H. pose proof (utf8_len_pos c). lia. Qed.

Lemma blen_split_le : forall a b c d : str, a ++ b = c ++ d -> blen a <= blen c -> exists l, c = a ++ l /\ b = l ++ d.
Proof.
  intros a b c d H Hl. apply app_eq_app in H. destruct H as [l [[-> ->]|[-> ->]]]; [|exists l; auto].
  rewrite blen_app in Hl. rewrite (blen_zero l) by lia. exists []. rewrite !app_nil_r. auto.
Qed.

Definition boundary_of (e : str) (n : N) : Prop := exists pre post, e = pre ++ post /\ n = blen pre.

Lemma span_ok_iff : forall e s n, span_ok e (s, n) <-> boundary_of e s /\ boundary_of e (s + n).
Proof.
  intros e s n. split.
  - intros [pre [mid [post [He [Hs Hn]]]]]. cbn [fst snd] in *. split.
    + exists pre, (mid ++ post). auto.
    + exists (pre ++ mid), post. split; [rewrite He; apply app_assoc|]. rewrite blen_app. lia.
  - intros [[p1 [q1 [H1 E1]]] [p2 [q2 [H2 E2]]]].
    destruct (blen_split_le p1 q1 p2 q2) as [z [Hz _]]; [rewrite <- H1, <- H2; reflexivity|lia|].
    exists p1, z, q2. cbn [fst snd]. split; [rewrite H2, Hz; symmetry; apply app_assoc|]. split; [exact E1|].
    rewrite Hz, blen_app in E2. lia.
Qed.

Lemma span_union_ok : forall e a b, span_ok e a -> span_ok e b -> span_ok e (span_union a b).
Proof.
  intros e [s1 n1] [s2 n2] Ha Hb. apply span_ok_iff in Ha. apply span_ok_iff in Hb.
  destruct Ha as [Ha1 Ha2], Hb as [Hb1 Hb2]. unfold span_union. cbn [fst snd]. apply span_ok_iff. split.
  - destruct (N.min_spec s1 s2) as [[_ ->]|[_ ->]]; assumption.
  - replace (N.min s1 s2 + (N.max (s1 + n1) (s2 + n2) - N.min s1 s2)) with (N.max (s1 + n1) (s2 + n2)) by lia.
    destruct (N.max_spec (s1 + n1) (s2 + n2)) as [[_ ->]|[_ ->]]; assumption.
Qed.

Lemma spans_ok_children : forall e t, spans_ok e t -> Forall (spans_ok e) (children t).
Proof.
  intros e t H. destruct t as [sp l|sp bs|sp ts|sp b lo hi]; destruct H as [_ H]; cbn [children].
  - constructor.
  - apply spans_ok_list. exact H.
  - apply spans_ok_list. exact H.
  - constructor; [exact H|constructor].
Qed.

Lemma bfs_levels_ok : forall e fuel level, Forall (spans_ok e) level -> Forall (spans_ok e) (bfs_levels fuel level).
Proof.
  induction fuel as [|f IH]; intros level H; cbn [bfs_levels]; [exact H|].
  destruct level as [|x l]; [constructor|]. apply Forall_app. split; [exact H|]. apply IH.
  apply Forall_flat_map. eapply Forall_impl; [|exact H]. apply spans_ok_children.
Qed.

Lemma bfs_ok : forall e t, spans_ok e t -> Forall (spans_ok e) (bfs t).
Proof. intros e t H. unfold bfs. apply bfs_levels_ok. constructor; [exact H|constructor]. Qed.

Lemma adjacent_boundary_ok : forall e ts sp, Forall (spans_ok e) ts -> adjacent_boundary ts = Some sp -> span_ok e sp.
Proof.
  induction ts as [|a ts IH]; intros sp H Hs; [discriminate|]. destruct ts as [|b ts']; [discriminate|].
  change (adjacent_boundary (a :: b :: ts')) with
    (if is_boundary a && is_boundary b then Some (span_union (tspan a) (tspan b)) else adjacent_boundary (b :: ts')) in Hs.
  inversion H as [|? ? Ha Hr]; subst. destruct (is_boundary a && is_boundary b); [|exact (IH _ Hr Hs)].
  inversion Hr as [|? ? Hb _]; subst. inversion Hs; subst. apply span_union_ok; apply spans_ok_span; assumption.
Qed.

Lemma concatenation_ok : forall e t, spans_ok e t -> Forall (spans_ok e) (concatenation t).
Proof.
  intros e t H. destruct t as [sp l|sp bs|sp ts|sp b lo hi]; cbn [concatenation]; try (constructor; [exact H|constructor]).
  apply (spans_ok_children e (TCat sp ts) H).
Qed.

(* the breadth-first branch check only ever reports the span of a token of the tree *)
Definition acc_ok (e : str) (acc : option (rule_kind * span) * list (outer * tok)) : Prop :=
  (forall k sp, fst acc = Some (k, sp) -> span_ok e sp) /\ Forall (spans_ok e) (map snd (snd acc)).

Lemma bstep_ok : forall e o acc x, spans_ok e (mid x) -> acc_ok e acc -> acc_ok e (bstep o acc x).
Proof.
  intros e o [err q] [[l t] r] Ht [Herr Hq]. unfold mid in Ht. cbn [fst snd] in *.
  assert (Hfirst : forall e0 k sp, opt_first err (option_map (fun k0 => (k0, tspan t)) e0) = Some (k, sp) -> span_ok e sp).
  { intros e0 k sp Hk. destruct err as [[k1 sp1]|]; [exact (Herr k sp Hk)|]. destruct e0; [|discriminate].
    inversion Hk; subst. apply spans_ok_span. exact Ht. }
  destruct t as [sp l0|sp bs|sp ts|sp b lo hi]; unfold bstep; split; cbn [fst snd]; try assumption.
  - apply Hfirst.
  - rewrite map_app. apply Forall_app. split; [exact Hq|]. rewrite map_map, map_id. exact (spans_ok_children e _ Ht).
  - apply Hfirst.
  - rewrite map_app. apply Forall_app. split; [exact Hq|]. exact (spans_ok_children e _ Ht).
Qed.

Lemma fold_bstep_ok : forall e o xs acc,
  Forall (fun x => spans_ok e (mid x)) xs -> acc_ok e acc -> acc_ok e (fold_left (bstep o) xs acc).
Proof.
  intros e o xs acc Hxs. revert acc. induction Hxs as [|x xs Hx _ IH]; intros acc Hacc; [exact Hacc|].
  cbn [fold_left]. apply IH, bstep_ok; assumption.
Qed.

Lemma branch_item_ok : forall e o t, spans_ok e t -> acc_ok e (branch_item (o, t)).
Proof.
  intros e o t Ht. rewrite branch_item_eq. apply fold_bstep_ok; [|split; [discriminate|constructor]].
  apply Forall_map. unfold adjacent. rewrite adjacent_aux_mid. exact (concatenation_ok e t Ht).
Qed.

Lemma branch_loop_ok : forall e fuel queue k sp,
  Forall (spans_ok e) (map snd queue) -> branch_loop fuel queue = Some (k, sp) -> span_ok e sp.
Proof.
  induction fuel as [|f IH]; intros queue k sp Hq H; cbn [branch_loop] in H; [discriminate|].
  destruct queue as [|[o t] rest]; [discriminate|]. cbn [map snd] in Hq. inversion Hq as [|? ? Ht Hrest]; subst.
  destruct (branch_item_ok e o t Ht) as [Herr Hmore]. destruct (branch_item (o, t)) as [[[k0 sp0]|] more]; cbn [fst snd] in *.
  - inversion H; subst. eapply Herr. reflexivity.
  - eapply IH; [|exact H]. rewrite map_app. apply Forall_app. split; assumption.
Qed.

Lemma rule_boundary_span_ok : forall e l sp, Forall (spans_ok e) l ->
  first_some_l (fun x => match x with TCat _ ts => adjacent_boundary ts | _ => None end) l = Some sp -> span_ok e sp.
Proof.
  intros e l sp Hl Hf. apply first_some_l_some in Hf. destruct Hf as [x [Hin Hx]]. rewrite Forall_forall in Hl.
  destruct x as [s0 l0|s0 bs|s0 ts|s0 b lo hi]; try discriminate.
  eapply adjacent_boundary_ok; [|exact Hx]. exact (spans_ok_children e (TCat s0 ts) (Hl _ Hin)).
Qed.

Lemma rule_size_list_span_ok : forall e l k sp, Forall (spans_ok e) l -> rule_size_list l = Ok (Some (k, sp)) -> span_ok e sp.
Proof.
  intros e l k sp Hl. induction Hl as [|x l Hx _ IH]; intros Hs; [discriminate|]. cbn [rule_size_list rbind] in Hs.
  destruct (size_variance x) as [v|]; [|discriminate]. cbn [rbind] in Hs. destruct v as [n|b]; [|exact (IH Hs)].
  destruct (MAX_INVARIANT_SIZE <=? n); [|exact (IH Hs)]. inversion Hs; subst. apply spans_ok_span. exact Hx.
Qed.

(* C17: the span of every rule error indexes the expression safely: each of the four rules reports the span of a token of the tree,
   the boundary rule the union of the spans of two *)
Theorem rule_error_span_ok : forall e t k sp, spans_ok e t -> check t = Ok (Some (k, sp)) -> span_ok e sp.
Proof.
  intros e t k sp Ht H. unfold check in H. pose proof (bfs_ok e t Ht) as Hb.
  destruct (rule_boundary t) as [[k0 sp0]|] eqn:E1.
  { inversion H; subst. unfold rule_boundary in E1. destruct (first_some_l _ (bfs t)) as [sp1|] eqn:Ef; [|discriminate].
    inversion E1; subst. eapply rule_boundary_span_ok; eassumption. }
  destruct (rule_bounds t) as [[k0 sp0]|] eqn:E2.
  { inversion H; subst. unfold rule_bounds in E2. destruct (find bad_bounds (bfs t)) as [x|] eqn:Ef; [|discriminate].
    inversion E2; subst. apply find_some in Ef. destruct Ef as [Hin _]. rewrite Forall_forall in Hb. apply spans_ok_span, Hb, Hin. }
  destruct (rule_branch t) as [[k0 sp0]|] eqn:E3.
  { inversion H; subst. unfold rule_branch in E3. eapply branch_loop_ok; [|exact E3]. cbn [map snd]. constructor; [exact Ht|constructor]. }
  eapply rule_size_list_span_ok; eassumption.
Qed.

Lemma number_from_in : forall l n c, In c (number_from n l) -> exists x, In x l /\ snd c = tspan x.
Proof.
  induction l as [|t l IH]; intros n c H; [contradiction|]. cbn [number_from] in H. destruct H as [<-|H].
  - exists t. split; [left; reflexivity|reflexivity].
  - destruct (IH _ _ H) as [x [Hx Hs]]. exists x. split; [right; exact Hx|exact Hs].
Qed.

Lemma captures_in : forall t c, In c (captures t) -> exists x, In x (concatenation t) /\ snd c = tspan x.
Proof.
  intros t c H. unfold captures in H. apply number_from_in in H. destruct H as [x [Hx Hs]]. apply filter_In in Hx.
  exists x. split; [exact (proj1 Hx)|exact Hs].
Qed.

Theorem capture_spans_ok : forall e t c, spans_ok e t -> In c (captures t) -> span_ok e (snd c).
Proof.
  intros e t c Ht Hc. apply captures_in in Hc. destruct Hc as [x [Hx ->]].
  pose proof (concatenation_ok e t Ht) as Hall. rewrite Forall_forall in Hall. apply spans_ok_span, Hall, Hx.
Qed.
