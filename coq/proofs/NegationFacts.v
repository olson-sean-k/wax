(* NegationFacts.v -- C03: the two programs a negation is compiled into (Token::into_alternatives, the partition by
   exhaustiveness, the `any` of each part) together match exactly what the negated pattern matches: at the level of the
   documented language, (exhaustive part or non-exhaustive part) = the pattern.  Includes the adequacy of the fuel of
   the alternatives queue, the three steps by which an alternative is reached from the pattern (`into_alternatives_inherit`),
   and the language of a part of the partition (`part_lang`; the `any` combinator itself is in ComposeFacts). *)
From WaxModel Require Import Base Token Regex Spec Variance Fold Query.
From WaxProofs Require Import AlgebraFacts SpecFacts FuelFacts ComposeFacts OwnedFacts.
Local Open Scope nat_scope.

Section Negation.
Variable orbit : char -> list char.
Notation Lang := (Spec.Lang orbit).

Lemma expands_single_cat : forall sp b x, Expands (TCat sp [b]) x <-> Expands b x.
Proof.
  intros sp b x. rewrite expands_cat. split.
  - intros [xs [HF ->]]. inversion HF as [|? y ? ys Hy Hr]; subst. inversion Hr; subst. cbn [concat]. rewrite app_nil_r. exact Hy.
  - intros H. exists [x]. split; [constructor; [exact H|constructor]|symmetry; apply app_nil_r].
Qed.

Lemma expands_rep_one : forall sp b x, Expands (TRep sp b 1 (Some 1%N)) x <-> Expands b x.
Proof.
  intros sp b x. rewrite expands_rep. split.
  - intros [xs [[Hlo Hhi] [HF ->]]]. destruct xs as [|y [|y2 ys]]; cbn [length] in *; try lia.
    inversion HF; subst. cbn [concat]. rewrite app_nil_r. assumption.
  - intros H. exists [x]. split; [cbn; unfold in_bounds; cbn; lia|]. split; [constructor; [exact H|constructor]|symmetry; apply app_nil_r].
Qed.

Lemma expands_single_alt : forall sp b x, Expands (TAlt sp [b]) x <-> Expands b x.
Proof.
  intros sp b x. rewrite expands_alt. split.
  - intros [b' [[<-|[]] H]]. exact H.
  - intros H. exists b. split; [left; reflexivity|exact H].
Qed.

(* Token::into_non_trivial takes off the wrappers that hold one token: an alternation of one branch, a concatenation of one
   member, a <x:1,1> repetition.  A relation between a token and what is left of it that is reflexive and survives each of the
   three wrappers holds between [t] and [into_non_trivial t] *)
Lemma non_trivial_ind : forall R : tok -> tok -> Prop,
  (forall t, R t t) ->
  (forall sp b r, R b r -> R (TAlt sp [b]) r) ->
  (forall sp b r, R b r -> R (TCat sp [b]) r) ->
  (forall sp b r, R b r -> R (TRep sp b 1 (Some 1%N)) r) ->
  forall t, R t (into_non_trivial t).
Proof.
  intros R Hrefl Halt Hcat Hrep.
  induction t as [sp l|sp bs IH|sp ts IH|sp b lo hi IH] using tok_ind'; cbn [into_non_trivial]; try apply Hrefl.
  - destruct bs as [|b [|b2 bs']]; try apply Hrefl. apply Halt, (Forall_inv IH).
  - destruct ts as [|b [|b2 ts']]; try apply Hrefl. apply Hcat, (Forall_inv IH).
  - destruct (rep_range lo hi) as [n|v] eqn:Er; [|apply Hrefl]. destruct n as [|[p|p|]]; try apply Hrefl.
    destruct (rep_range_inv_bounds lo hi 1 Er) as [-> ->]. apply Hrep, IH.
Qed.

Lemma expands_non_trivial : forall t x, Expands (into_non_trivial t) x <-> Expands t x.
Proof.
  intros t x. apply (non_trivial_ind (fun t r => Expands r x <-> Expands t x)); [reflexivity|..]; intros sp b r ->; symmetry.
  - apply expands_single_alt.
  - apply expands_single_cat.
  - apply expands_rep_one.
Qed.

Lemma tsize_non_trivial : forall t, tsize (into_non_trivial t) <= tsize t.
Proof. apply (non_trivial_ind (fun t r => tsize r <= tsize t)); intros; cbn [tsize fold_right]; lia. Qed.

Lemma csize_filter_le : forall (p : tok -> bool) l, csize (filter p l) <= csize l.
Proof. intros p l. induction l as [|t l IH]; [cbn; lia|]. cbn [filter]. destruct (p t); rewrite ?csize_cons; lia. Qed.

Lemma csize_map_non_trivial : forall l, csize (map into_non_trivial l) <= csize l.
Proof. induction l as [|t l IH]; [cbn; lia|]. cbn [map]. rewrite !csize_cons. pose proof (tsize_non_trivial t). lia. Qed.

Lemma exists_filter_split : forall (A : Type) (P : A -> Prop) (f : A -> bool) l,
  Exists P (filter (fun a => negb (f a)) l) \/ Exists P (filter f l) <-> Exists P l.
Proof.
  intros A P f l. induction l as [|a l IH]; cbn [filter]; [rewrite Exists_nil; tauto|].
  destruct (f a); cbn [negb]; rewrite !Exists_cons, <- IH; tauto.
Qed.

Lemma alternatives_expands : forall x fuel queue, csize queue < fuel ->
  (Exists (fun a => Expands a x) (alternatives_loop fuel queue) <-> Exists (fun t => Expands t x) queue).
Proof.
  intros x. induction fuel as [|f IH]; intros queue Hf; [lia|]. destruct queue as [|t rest]; [reflexivity|].
  rewrite csize_cons in Hf. pose proof (tsize_pos t) as Hpos.
  destruct t as [sp l|sp bs|sp ts|sp b lo hi]; cbn [alternatives_loop]; try (rewrite !Exists_cons, IH by lia; reflexivity).
  (* an alternation: its branches, made non-trivial, are output or queued *)
  set (bs' := map into_non_trivial bs).
  assert (Hq : csize (rest ++ filter is_disjunctive bs') < f).
  { rewrite csize_app. pose proof (csize_filter_le is_disjunctive bs'). pose proof (csize_map_non_trivial bs). subst bs'.
    cbn [tsize] in Hf. fold (csize bs) in Hf. lia. }
  assert (Hbs : Exists (fun a => Expands a x) bs' <-> Expands (TAlt sp bs) x).
  { subst bs'. rewrite Exists_map, Exists_exists, expands_alt. setoid_rewrite expands_non_trivial. reflexivity. }
  rewrite Exists_app, (IH _ Hq), Exists_app, Exists_cons, <- Hbs, <- (exists_filter_split _ _ is_disjunctive bs'). tauto.
Qed.

Theorem into_alternatives_expands : forall t x, Exists (fun a => Expands a x) (into_alternatives t) <-> Expands t x.
Proof.
  intros t x. unfold into_alternatives. rewrite alternatives_expands.
  - rewrite Exists_cons, Exists_nil, expands_non_trivial. tauto.
  - cbn [csize fold_right]. pose proof (tsize_non_trivial t). lia.
Qed.

Theorem into_alternatives_lang : forall t w, (exists a, In a (into_alternatives t) /\ Lang a w) <-> Lang t w.
Proof.
  intros t w. unfold Spec.Lang. split.
  - intros [a [Hin [x [Hx Hm]]]]. exists x. split; [apply into_alternatives_expands, Exists_exists; eauto|exact Hm].
  - intros [x [Hx Hm]]. apply into_alternatives_expands, Exists_exists in Hx. destruct Hx as [a [Hin Ha]].
    exists a. split; [exact Hin|exists x; split; assumption].
Qed.

(* an alternative is reached from the pattern by taking a branch of an alternation, the member of a one-member concatenation or
   the body of a <x:1,1> repetition: a property that survives these three steps holds of every alternative *)
Section Inherit.
Variable P : tok -> Prop.
Hypothesis P_branch : forall sp bs b, P (TAlt sp bs) -> In b bs -> P b.
Hypothesis P_cat : forall sp b, P (TCat sp [b]) -> P b.
Hypothesis P_rep : forall sp b, P (TRep sp b 1 (Some 1%N)) -> P b.

Lemma non_trivial_inherit : forall t, P t -> P (into_non_trivial t).
Proof.
  apply (non_trivial_ind (fun t r => P t -> P r)); eauto.
  intros sp b r IH Ht. apply IH, (P_branch sp [b]); [exact Ht|left; reflexivity].
Qed.

Lemma alternatives_inherit : forall fuel queue, Forall P queue -> Forall P (alternatives_loop fuel queue).
Proof.
  induction fuel as [|f IH]; intros queue HQ; [constructor|]. destruct queue as [|t rest]; [constructor|].
  inversion HQ as [|? ? Ht Hrest]; subst.
  destruct t as [sp l|sp bs|sp ts|sp b lo hi]; cbn [alternatives_loop]; try (constructor; [exact Ht|apply IH; exact Hrest]).
  assert (Hbs : Forall P (map into_non_trivial bs)).
  { apply Forall_map, Forall_forall. intros b Hin. exact (non_trivial_inherit b (P_branch sp bs b Ht Hin)). }
  apply Forall_app. split; [exact (incl_Forall (incl_filter _ _) Hbs)|]. apply IH, Forall_app. split; [exact Hrest|exact (incl_Forall (incl_filter _ _) Hbs)].
Qed.

Lemma into_alternatives_inherit : forall t, P t -> Forall P (into_alternatives t).
Proof. intros t Ht. apply alternatives_inherit. constructor; [exact (non_trivial_inherit t Ht)|constructor]. Qed.
End Inherit.

Definition opt_lang (o : option tok) (w : str) : Prop := match o with Some t => Lang t w | None => False end.

(* one part of the partition: nothing, or the `any` of its alternatives *)
Definition part_of (l : list tok) (o : option tok) : Prop :=
  match l, o with
  | [], None => True
  | _ :: _, Some t => t = TAlt (0%N, 0%N) (map (respan (fun _ => (0%N, 0%N))) l)
  | _, _ => False
  end.

Lemma part_lang : forall l o w, part_of l o -> (opt_lang o w <-> exists a, In a l /\ Lang a w).
Proof.
  intros l o w H. destruct l as [|a0 l'], o as [t|]; try contradiction; cbn [part_of opt_lang] in *.
  - split; [contradiction|intros [a [[] _]]].
  - subst t. apply lang_any.
Qed.

Lemma opt_any_part : forall l o, Forall tok_bounds_ok l ->
  match l with [] => Ok None | _ => rmap Some (any_tree l) end = Ok o -> part_of l o.
Proof.
  intros l o Hb H. destruct l as [|a l]; [inversion H; exact I|]. rewrite (any_tree_ok _ Hb) in H. inversion H. reflexivity.
Qed.

Lemma split_by_flags : forall (A : Type) (R : A -> bool -> Prop) l flags, Forall2 R l flags ->
  (forall a, In a (map fst (filter (fun p => snd p) (combine l flags))) -> R a true) /\
  (forall a, In a l <-> In a (map fst (filter (fun p => snd p) (combine l flags))) \/
                        In a (map fst (filter (fun p => negb (snd p)) (combine l flags)))).
Proof.
  intros A R l flags H. induction H as [|a0 fl l flags Ha _ [IHt IHc]]; [split; [contradiction|cbn; tauto]|].
  cbn [combine filter snd]. split.
  - intros a. destruct fl; cbn [negb map fst In]; [intros [<-|Hin]; [exact Ha|exact (IHt a Hin)]|exact (IHt a)].
  - intros a. destruct fl; cbn [negb map fst In]; rewrite (IHc a); tauto.
Qed.

Lemma not_partition_parts : forall t ext nxt, Forall tok_bounds_ok (into_alternatives t) -> not_partition t = Ok (ext, nxt) ->
  exists ex nx, part_of ex ext /\ part_of nx nxt /\
    (forall a, In a ex -> is_exhaustive a = Ok Always) /\
    (forall a, In a (into_alternatives t) <-> In a ex \/ In a nx).
Proof.
  intros t ext nxt Hb H. unfold not_partition in H.
  destruct (rmapM _ (into_alternatives t)) as [flags|] eqn:Ef; [|discriminate]. cbn [rbind] in H.
  destruct (split_by_flags _ _ _ _ (rmapM_ok_forall2 _ _ _ Ef)) as [Hex Hcover].
  set (ex := map fst (filter (fun p => snd p) _)) in *. set (nx := map fst (filter (fun p => negb (snd p)) _)) in *.
  rewrite Forall_forall in Hb.
  assert (Hbex : Forall tok_bounds_ok ex) by (apply Forall_forall; intros a Ha; apply Hb, Hcover; left; exact Ha).
  assert (Hbnx : Forall tok_bounds_ok nx) by (apply Forall_forall; intros a Ha; apply Hb, Hcover; right; exact Ha).
  destruct (match ex with [] => Ok None | _ => rmap Some (any_tree ex) end) as [oe|] eqn:Eoe; [|discriminate]. cbn [rbind] in H.
  destruct (match nx with [] => Ok None | _ => rmap Some (any_tree nx) end) as [on|] eqn:Eon; [|discriminate]. cbn [rbind] in H.
  inversion H; subst. exists ex, nx. split; [exact (opt_any_part ex ext Hbex Eoe)|]. split; [exact (opt_any_part nx nxt Hbnx Eon)|]. split; [|exact Hcover].
  intros a Ha. specialize (Hex a Ha). cbn beta in Hex. destruct (is_exhaustive a) as [[]|]; (discriminate || reflexivity).
Qed.

(* C03: what the two programs of a negation match together is what the negated pattern matches *)
Theorem not_partition_lang : forall t ext nxt w,
  Forall tok_bounds_ok (into_alternatives t) -> not_partition t = Ok (ext, nxt) ->
  ((opt_lang ext w \/ opt_lang nxt w) <-> Lang t w).
Proof.
  intros t ext nxt w Hb H. destruct (not_partition_parts t ext nxt Hb H) as [ex [nx [Pex [Pnx [_ Hcover]]]]].
  rewrite (part_lang ex ext w Pex), (part_lang nx nxt w Pnx), <- (into_alternatives_lang t w). split.
  - intros [[a [Hin Ha]]|[a [Hin Ha]]]; exists a; (split; [apply Hcover; auto|exact Ha]).
  - intros [a [Hin Ha]]. apply Hcover in Hin. destruct Hin as [Hin|Hin]; [left|right]; exists a; split; assumption.
Qed.

End Negation.
