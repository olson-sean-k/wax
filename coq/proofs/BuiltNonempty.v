(* BuiltNonempty.v -- every built glob satisfies [nonempty_branches]: the parser produces no empty alternation or concatenation,
   at any depth, and the bounds rule refuses a repetition bounded by 0,0.  That is the side condition of the text and root theorems,
   which are stated here for built globs (C11 [built_invariant_text_characterises], C12 [built_root_sound]). *)
From WaxModel Require Import Base Spec Variance Fold Rule Parse Glob.
From WaxProofs Require Import ParseRel FuelFacts SpecFacts AlgebraFacts BuiltFacts TextExists.

Theorem parse_nonempty : forall e t, parse e = ParseOk t -> (forall x, sub x t -> bad_bounds x = false) -> nonempty_branches t = true.
Proof.
  apply (parse_tree_inv (fun t => (forall x, sub x t -> bad_bounds x = false) -> nonempty_branches t = true)).
  - reflexivity.
  - intros sp b lo hi i1 i2 _ IH _ Hsub. apply nonempty_branches_rep. split; [apply IH; exact (Forall_inv (sub_in_children _ _ Hsub))|].
    intros [-> ->]. pose proof (Hsub _ (sub_refl _)) as H0. discriminate H0.
  - intros sp bs Hne _ IH Hsub. apply nonempty_branches_alt. split; [exact Hne|]. apply (Forall_mp _ _ _ IH). exact (sub_in_children _ _ Hsub).
  - intros tm i ts i' sp _ Hne _ IH Hsub. apply nonempty_branches_cat. split; [exact Hne|]. apply (Forall_mp _ _ _ IH). exact (sub_in_children _ _ Hsub).
  - reflexivity.
Qed.

Theorem built_nonempty_branches : forall e t r, build e = BuildOk t r -> nonempty_branches t = true.
Proof.
  intros e t r H. destruct (build_ok_inv _ _ _ H) as (Ep & Ec & _).
  apply (parse_nonempty e t Ep). apply built_bounds_everywhere. exact Ec.
Qed.

(* C12: a built glob that reports "always rooted" only matches paths that begin with a separator *)
Theorem built_root_sound : forall orbit e t r p, build e = BuildOk t r -> has_root t = Always -> Lang orbit t p -> starts_sep p = true.
Proof. intros orbit e t r p Hb. apply root_sound. exact (built_nonempty_branches _ _ _ Hb). Qed.

(* C11: the documented language of a built glob that reports invariant text is exactly that text *)
Theorem built_invariant_text_characterises :
  forall (orbit : char -> list char) (has_casing : char -> bool),
    (forall c d, has_casing c = false -> In d (orbit c) -> d = c) ->
    forall e t r txt, build e = BuildOk t r -> classes_plain t = true -> text_variance has_casing t = Ok (Inv txt) ->
    forall w, Lang orbit t w <-> w = text_to_string txt.
Proof. intros orbit hc Hco e t r txt Hb. apply (invariant_text_characterises orbit hc Hco). exact (built_nonempty_branches _ _ _ Hb). Qed.
