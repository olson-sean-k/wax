(* CaptureFacts.v -- C04: what the matching engine records in capture groups.  For any continuation (hence for the
   leftmost-first parse and for every other parse the search of the correspondence check can select): the groups of a
   sub-expression are only set inside the text that sub-expression matched, groups of other sub-expressions are left
   alone, and a capturing group that wraps a sub-expression records exactly the text that sub-expression matched ([m_caps]).
   Also: [accepts_spec] (with [MatcherFacts.m_complete]: the engine decides [sem]), and for the top-level sequence of a
   glob [glob_captures_valid] ([assigned]: one group per capturing token, in token order). *)
From Coq Require Import Arith.
From WaxModel Require Import Base Token Regex Encode.
From WaxProofs Require Import RuleFacts MatcherFacts EncodeFacts.
Local Open Scope nat_scope.

Lemma in_bounds_succ : forall k lo hi, in_bounds k (N.pred lo) (match hi with Some h => Some (N.pred h) | None => None end) ->
  (match hi with Some h => (0 <? h)%N | None => true end) = true -> in_bounds (S k) lo hi.
Proof.
  intros k lo hi [Hl Hh] Hm. unfold in_bounds. split; [lia|]. destruct hi as [h|]; [|exact I]. apply N.ltb_lt in Hm. lia.
Qed.

Lemma get_cap_filter : forall j g c, j <> g -> get_cap j (filter (fun x => negb (Nat.eqb (fst x) g)) c) = get_cap j c.
Proof.
  intros j g c H. induction c as [|[g' se] c IH]; [reflexivity|]. cbn [filter fst]. destruct (Nat.eqb_spec g' g) as [->|Hn]; cbn [negb get_cap].
  - destruct (Nat.eqb_spec j g); [congruence|exact IH].
  - destruct (Nat.eqb j g'); [reflexivity|exact IH].
Qed.

Lemma get_cap_set : forall j g se c, get_cap j (set_cap g se c) = if Nat.eqb j g then Some se else get_cap j c.
Proof.
  intros j g se c. unfold set_cap. cbn [get_cap]. destruct (Nat.eqb_spec j g) as [->|Hn]; [reflexivity|]. apply get_cap_filter. exact Hn.
Qed.

(* [eff g n p0 p1 c c']: going from c to c', only groups g .. g+n-1 changed, and each changed group now holds a span
   within [p0, p1] *)
Definition eff (g n p0 p1 : nat) (c c' : caps) : Prop :=
  forall j, get_cap j c' = get_cap j c \/
            (g <= j < g + n /\ exists s e, get_cap j c' = Some (s, e) /\ p0 <= s /\ s <= e /\ e <= p1).

Lemma eff_refl : forall g n p0 p1 c, eff g n p0 p1 c c.
Proof. intros g n p0 p1 c j. left. reflexivity. Qed.

Lemma eff_outside : forall g n p0 p1 c c' j, eff g n p0 p1 c c' -> j < g \/ g + n <= j -> get_cap j c' = get_cap j c.
Proof. intros g n p0 p1 c c' j E Hj. destruct (E j) as [Ej|[Hr _]]; [exact Ej|lia]. Qed.

Lemma eff_mono : forall g n p0 p1 g' n' q0 q1 c c', eff g n p0 p1 c c' -> g' <= g -> g + n <= g' + n' -> q0 <= p0 -> p1 <= q1 ->
  eff g' n' q0 q1 c c'.
Proof.
  intros g n p0 p1 g' n' q0 q1 c c' H Hg Hn H0 H1 j. destruct (H j) as [E|[Hj [s [e [E [A [B C]]]]]]]; [left; exact E|].
  right. split; [lia|]. exists s, e. repeat split; try assumption; lia.
Qed.

Lemma eff_trans : forall g n p0 p1 c c1 c2, eff g n p0 p1 c c1 -> eff g n p0 p1 c1 c2 -> eff g n p0 p1 c c2.
Proof.
  intros g n p0 p1 c c1 c2 H1 H2 j. destruct (H2 j) as [E|R]; [|right; exact R]. rewrite E. apply H1.
Qed.

Lemma eff_set : forall g n p0 p1 c j0 s e, g <= j0 < g + n -> p0 <= s -> s <= e -> e <= p1 -> eff g n p0 p1 c (set_cap j0 (s, e) c).
Proof.
  intros g n p0 p1 c j0 s e Hj A B C j. rewrite get_cap_set. destruct (Nat.eqb_spec j j0) as [->|]; [|left; reflexivity].
  right. split; [exact Hj|]. exists s, e. repeat split; assumption.
Qed.

Section Captures.
Variable orbit : char -> list char.
Notation sem := (sem orbit).
Notation m := (m orbit).

(* what a successful run of the engine on [r] at [w] delivers: [r] matches a prefix of [w], the continuation succeeds on
   the rest, and only groups of [r] were set, to spans within that prefix *)
Definition m_post (total : nat) (r : re) (g : nat) (w : str) (c : caps) (k : K) (x : caps) : Prop :=
  exists u v c', w = u ++ v /\ sem r u /\ k v c' = Some x /\
    eff g (ngroups r) (total - length w) (total - length v) c c'.

Lemma m_post_leaf : forall total r g u v c k x, sem r u -> k v c = Some x -> m_post total r g (u ++ v) c k x.
Proof. intros total r g u v c k x Hu Hk. exists u, v, c. split; [reflexivity|]. split; [exact Hu|]. split; [exact Hk|apply eff_refl]. Qed.

Lemma m_post_sub : forall total a r g' g w c k x, m_post total a g' w c k x ->
  (forall u, sem a u -> sem r u) -> g <= g' -> g' + ngroups a <= g + ngroups r -> m_post total r g w c k x.
Proof.
  intros total a r g' g w c k x [u [v [c' [-> [Hu [Hk E]]]]]] Hs Hg Hn. exists u, v, c'.
  split; [reflexivity|]. split; [apply Hs; exact Hu|]. split; [exact Hk|]. eapply eff_mono; [exact E|..]; lia.
Qed.

Lemma m_post_seq : forall total a b r g gb w c k kb x, m_post total a g w c kb x ->
  (forall v c1, kb v c1 = Some x -> m_post total b gb v c1 k x) ->
  (forall u1 u2, sem a u1 -> sem b u2 -> sem r (u1 ++ u2)) ->
  ngroups a <= ngroups r -> g <= gb -> gb + ngroups b <= g + ngroups r -> m_post total r g w c k x.
Proof.
  intros total a b r g gb w c k kb x [u [v [c1 [-> [Hu [Hk E1]]]]]] Hb Hs Hn Hg Hnb.
  destruct (Hb v c1 Hk) as [u2 [v2 [c2 [-> [Hu2 [Hk2 E2]]]]]]. exists (u ++ u2), v2, c2.
  split; [apply app_assoc|]. split; [apply Hs; assumption|]. split; [exact Hk2|].
  rewrite !app_length in *. eapply eff_trans; [eapply eff_mono; [exact E1|..]|eapply eff_mono; [exact E2|..]]; lia.
Qed.

Lemma m_post_group : forall total a g w c k x,
  m_post total a (S g) w c (fun w' c' => k w' (set_cap g (total - length w, total - length w') c')) x ->
  exists u v c', w = u ++ v /\ sem a u /\ k v c' = Some x /\
    eff g (S (ngroups a)) (total - length w) (total - length v) c c' /\
    get_cap g c' = Some (total - length w, total - length v).
Proof.
  intros total a g w c k x [u [v [c1 [-> [Hu [Hk E1]]]]]]. eexists u, v, _.
  split; [reflexivity|]. split; [exact Hu|]. split; [exact Hk|]. rewrite app_length in *. split.
  - eapply eff_trans; [eapply eff_mono; [exact E1|..]; lia|]. apply eff_set; lia.
  - rewrite get_cap_set, Nat.eqb_refl. reflexivity.
Qed.

(* each case of the engine is an instance of [m_post_leaf], [m_post_sub], [m_post_seq] or [m_post_group] *)
Theorem m_eff : forall fuel total r g w c k x, m total fuel r g w c k = Some x -> m_post total r g w c k x.
Proof.
  induction fuel as [|f IH]; intros total r g w c k x H; [discriminate|]. cbn [Regex.m] in H.
  destruct r as [ci s| | |neg a| | | |a b|a b|a|lz a|a lo hi|cap a].
  - destruct (Regex.lit_match orbit ci s w) as [w'|] eqn:E; [|discriminate]. destruct (lit_match_sound orbit _ _ _ _ E) as [u [-> Hu]].
    apply m_post_leaf; assumption.
  - destruct w as [|d w']; [discriminate|]. destruct (N.eqb_spec d SEP) as [->|]; [|discriminate].
    apply (m_post_leaf total RSep g [SEP]); [reflexivity|exact H].
  - destruct w as [|d w']; [discriminate|]. destruct (N.eqb_spec d SEP) as [|Hd]; [discriminate|].
    apply (m_post_leaf total RNsep g [d]); [exists d; split; [reflexivity|exact Hd]|exact H].
  - destruct w as [|d w']; [discriminate|]. destruct (class_match neg a d) eqn:E; [|discriminate].
    apply (m_post_leaf total (RClass neg a) g [d]); [exists d; split; [reflexivity|exact E]|exact H].
  - discriminate.
  - apply first_some_l_some in H. destruct H as [w' [Hin Hk]]. apply in_rev, suffixes_spec in Hin. destruct Hin as [u ->].
    apply m_post_leaf; [exact I|exact Hk].
  - apply (m_post_leaf total REmpty g []); [reflexivity|exact H].
  - apply IH in H. eapply m_post_seq; [exact H|intros v c1 Hk; apply IH; exact Hk| |cbn [ngroups]; lia..].
    intros u1 u2 H1 H2. exists u1, u2. auto.
  - apply orelse_some in H. destruct H as [H|H]; apply IH in H.
    + eapply m_post_sub; [exact H|intros u Hu; left; exact Hu|cbn [ngroups]; lia..].
    + eapply m_post_sub; [exact H|intros u Hu; right; exact Hu|cbn [ngroups]; lia..].
  - apply orelse_some in H. destruct H as [H|H].
    + apply IH in H. eapply m_post_sub; [exact H|intros u Hu; right; exact Hu|cbn [ngroups]; lia..].
    + apply (m_post_leaf total (ROpt a) g []); [left; reflexivity|exact H].
  - (* one iteration, then the star again on a shorter text; or stop *)
    assert (Hmore : m total f a g w c (fun w' c' => if Nat.ltb (length w') (length w) then m total f (RStar lz a) g w' c' k else None) = Some x ->
              m_post total (RStar lz a) g w c k x).
    { intros Hy. apply IH in Hy. apply (m_post_seq total a (RStar lz a) (RStar lz a) g g _ _ _ _ _ Hy); [| |cbn [ngroups]; lia..].
      - intros v c1 Hk. destruct (Nat.ltb (length v) (length w)); [apply IH; exact Hk|discriminate].
      - intros u1 u2 H1 [n Hn]. exists (S n). constructor; assumption. }
    assert (Hstop : k w c = Some x -> m_post total (RStar lz a) g w c k x).
    { intros Hy. apply (m_post_leaf total (RStar lz a) g []); [exists 0; constructor|exact Hy]. }
    destruct lz; apply orelse_some in H; destruct H as [H|H]; auto.
  - apply orelse_some in H. destruct H as [H|H].
    + destruct (match hi with Some h => (0 <? h)%N | None => true end) eqn:Ecm; [|discriminate]. apply IH in H.
      apply (m_post_seq total a (RRep a (N.pred lo) (match hi with Some h => Some (N.pred h) | None => None end)) (RRep a lo hi) g g _ _ _ _ _ H); [| |cbn [ngroups]; lia..].
      * intros v c1 Hk. destruct (Nat.ltb (length v) (length w) || negb (lo =? 0)%N); [apply IH; exact Hk|discriminate].
      * intros u1 u2 H1 [n [Hb Hn]]. exists (S n). split; [apply in_bounds_succ; [exact Hb|exact Ecm]|constructor; assumption].
    + destruct (N.eqb_spec lo 0) as [->|]; [|discriminate]. apply (m_post_leaf total (RRep a 0 hi) g []); [|exact H].
      exists 0. split; [|constructor]. unfold in_bounds. split; [lia|]. destruct hi; [lia|exact I].
  - destruct cap.
    + apply IH, m_post_group in H. destruct H as [u [v [c' [Hw [Hu [Hk [E _]]]]]]]. exists u, v, c'. auto.
    + apply IH in H. eapply m_post_sub; [exact H|intros u Hu; exact Hu|cbn [ngroups]; lia..].
Qed.

Theorem m_caps : forall fuel total r g w c k x, m total fuel r g w c k = Some x ->
  exists u v c', w = u ++ v /\ sem r u /\ k v c' = Some x /\
    eff g (ngroups r) (total - length w) (total - length v) c c' /\
    (forall a, r = RGroup true a -> get_cap g c' = Some (total - length w, total - length v)).
Proof.
  intros fuel total r g w c k x H.
  (* only a capturing group needs more than [m_eff] *)
  assert (Hr : (exists a, r = RGroup true a) \/ forall a, r <> RGroup true a).
  { destruct r as [ | | | | | | | | | | | |[] a]; try (right; discriminate). left. exists a. reflexivity. }
  destruct Hr as [[a ->]|Hn].
  - destruct fuel as [|f]; [discriminate|]. cbn [Regex.m] in H. apply m_eff, m_post_group in H.
    destruct H as [u [v [c' [Hw [Hu [Hk [E Hg]]]]]]]. exists u, v, c'. repeat split; try assumption. intros a0 _. exact Hg.
  - destruct (m_eff _ _ _ _ _ _ _ _ H) as [u [v [c' [Hw [Hu [Hk E]]]]]].
    exists u, v, c'. repeat split; try assumption. intros a Ha. destruct (Hn a Ha).
Qed.

Theorem accepts_spec : forall r w, accepts orbit r w = true <-> sem r w.
Proof.
  intros r w. unfold accepts, run. split.
  - destruct (Regex.m orbit (length w) (need r (length w)) r 0 w [] k_end) eqn:E; [|discriminate]. intros _.
    apply m_eff in E. destruct E as [u [v [c' [-> [Hu [Hk _]]]]]]. unfold k_end in Hk. destruct v; [|discriminate].
    rewrite app_nil_r. exact Hu.
  - intros Hs. pose proof (m_complete orbit (need r (length w)) (length w) r 0 w w [] [] k_end) as H.
    destruct (Regex.m orbit (length w) (need r (length w)) r 0 w [] k_end); [reflexivity|].
    exfalso. apply H; [symmetry; apply app_nil_r|exact Hs|intros c'; discriminate|apply le_n|reflexivity].
Qed.

End Captures.

Definition whole_group (t : tok) : bool := is_capturing t && negb (is_tree t).

(* [assigned ts g pos us c]: token by token, with [us] the texts the tokens matched from offset [pos]: a capturing token
   other than a tree wildcard recorded exactly its text in its own group; a tree wildcard recorded nothing or a span inside
   its text; groups are numbered in token order *)
Fixpoint assigned (ts : list tok) (g pos : nat) (us : list str) (c : caps) : Prop :=
  match ts, us with
  | [], [] => True
  | t :: ts', u :: us' =>
      (whole_group t = true -> get_cap g c = Some (pos, pos + length u)) /\
      (is_tree t = true -> get_cap g c = None \/
                           exists s e, get_cap g c = Some (s, e) /\ pos <= s /\ s <= e /\ e <= pos + length u) /\
      assigned ts' (g + cap_count t) (pos + length u) us' c
  | _, _ => False
  end.

Lemma assigned_frame : forall ts g pos us c c', (forall j, g <= j -> get_cap j c' = get_cap j c) -> assigned ts g pos us c -> assigned ts g pos us c'.
Proof.
  induction ts as [|t ts IH]; intros g pos us c c' Hf H; destruct us as [|u us]; try exact H. cbn [assigned] in *.
  destruct H as [H1 [H2 H3]]. rewrite (Hf g (le_n g)). split; [exact H1|]. split; [exact H2|].
  apply (IH _ _ _ c); [|exact H3]. intros j Hj. apply Hf. lia.
Qed.

Lemma whole_group_enc : forall t s e, whole_group t = true -> exists a, enc_tok true t s e = RGroup true a.
Proof.
  intros t s e Hw. destruct t as [sp l|sp bs|sp ts|sp b lo hi]; [| |discriminate|].
  - destruct l; cbn in Hw; try discriminate; cbn [enc_tok enc_leaf grp]; eexists; reflexivity.
  - cbn [enc_tok grp]. eexists; reflexivity.
  - cbn [enc_tok]. destruct (norm_bounds lo hi). cbn [grp]. eexists; reflexivity.
Qed.

Section Sequence.
Variable orbit : char -> list char.
Notation sem := (sem orbit).
Notation m := (m orbit).

(* uniform in whether anything follows the first element: after a last element the continuation runs the empty sequence *)
Lemma m_seq_cons : forall first f fs s e fuel total g w c k x,
  m total fuel (seq_edges_aux first (f :: fs) s e) g w c k = Some x ->
  exists fuel', m total fuel' (f (s && first) (e && is_nil fs)) g w c
    (fun w' c' => m total fuel' (seq_edges_aux false fs s e) (g + ngroups (f (s && first) (e && is_nil fs))) w' c' k) = Some x.
Proof.
  intros first f fs s e fuel total g w c k x H. destruct fuel as [|f0]; [discriminate|]. destruct fs as [|f' fs'].
  - exists (S f0). cbn [is_nil]. rewrite andb_true_r. exact H.
  - exists f0. cbn [is_nil]. rewrite andb_false_r. exact H.
Qed.

(* Token by token: [m_caps] for the first token; the rest of the sequence, whose groups are numbered above, leaves its
   groups alone. *)
Theorem sequence_caps : forall ts first s e fuel total g w c k x,
  Forall (fun t => is_cat t = false) ts -> length w <= total -> (forall j, g <= j -> get_cap j c = None) ->
  m total fuel (seq_edges_aux first (map (enc_tok true) ts) s e) g w c k = Some x ->
  exists us v c', w = concat us ++ v /\ Forall2 (fun t u => exists s' e', sem (enc_tok true t s' e') u) ts us /\
    k v c' = Some x /\ (forall j, j < g -> get_cap j c' = get_cap j c) /\ assigned ts g (total - length w) us c'.
Proof.
  induction ts as [|t ts IH]; intros first s e fuel total g w c k x Hf Hlen Hnone H.
  - cbn [map seq_edges_aux] in H. destruct fuel as [|f0]; [discriminate|]. cbn [Regex.m] in H.
    exists [], w, c. split; [reflexivity|]. split; [constructor|]. split; [exact H|]. split; [intros; reflexivity|exact I].
  - inversion Hf as [|? ? Hc Hf']; subst. cbn [map] in H. apply m_seq_cons in H. destruct H as [f0 H].
    apply m_caps in H. destruct H as [u [v [c1 [-> [Hu [Hk [E Hg]]]]]]]. rewrite (ngroups_enc_true_noncat t _ _ Hc) in Hk, E.
    assert (Hpos : total - length (u ++ v) + length u = total - length v) by (rewrite app_length in *; lia).
    destruct (IH false s e f0 total (g + cap_count t) v c1 k x Hf') as [us [v2 [c2 [Hv [HF [Hk2 [Hlow2 Has]]]]]]]; [| |exact Hk|].
    { rewrite app_length in Hlen. lia. }
    { intros j Hj. rewrite (eff_outside _ _ _ _ _ _ j E) by lia. apply Hnone. lia. }
    exists (u :: us), v2, c2. split; [cbn [concat]; rewrite Hv, app_assoc; reflexivity|].
    split; [constructor; [eexists _, _; exact Hu|exact HF]|]. split; [exact Hk2|].
    split; [intros j Hj; rewrite Hlow2 by lia; apply (eff_outside _ _ _ _ _ _ j E); lia|].
    (* the group of [t], if it has one, lies below those of the tokens that follow *)
    assert (Hcap : is_capturing t = true -> get_cap g c2 = get_cap g c1).
    { intros Hic. apply Hlow2. unfold cap_count. rewrite Hic. lia. }
    cbn [assigned]. rewrite Hpos. split; [|split; [|exact Has]].
    + intros Hwg. edestruct whole_group_enc as [a Ha]; [exact Hwg|]. rewrite Hcap; [exact (Hg a Ha)|].
      unfold whole_group in Hwg. apply andb_prop in Hwg. exact (proj1 Hwg).
    + intros Htr. rewrite Hcap; [|destruct t as [? []| | |]; try discriminate; reflexivity].
      destruct (E g) as [Ej|[_ [s0 [e0 [Es [A [B C]]]]]]]; [left; rewrite Ej; apply Hnone; apply le_n|].
      right. exists s0, e0. repeat split; assumption.
Qed.

(* C04: whatever parse of the path the engine (or the search of the correspondence check) ends with - any continuation -
   the capture groups hold a consistent assignment: the path splits into one text per top-level token, each text matched by
   its own token; a capturing token other than a tree wildcard recorded exactly its text, a tree wildcard nothing or a span
   inside its text; groups are numbered in token order, so the captures are ordered and disjoint *)
Theorem glob_captures_valid : forall t fuel w k x, flat_top t ->
  m (length w) fuel (encode t) 0 w [] k = Some x ->
  exists us v c', w = concat us ++ v /\
    Forall2 (fun t u => exists s' e', sem (enc_tok true t s' e') u) (concatenation t) us /\
    k v c' = Some x /\ assigned (concatenation t) 0 0 us c'.
Proof.
  intros t fuel w k x Hf H.
  assert (Hseq : encode t = seq_edges_aux true (map (enc_tok true) (concatenation t)) true true).
  { unfold encode. destruct t; reflexivity. }
  rewrite Hseq in H. apply sequence_caps in H; [|exact Hf|apply le_n|intros; reflexivity].
  destruct H as [us [v [c' [Hw [HF [Hk [_ Has]]]]]]]. rewrite Nat.sub_diag in Has. exists us, v, c'. repeat split; assumption.
Qed.

End Sequence.
