(* PruneFacts.v -- C02: pruning soundness of the component programs of a walk (WalkProgram::compile): whatever path the
   complete program of a glob accepts, every component program accepts the component of that path at its own position.
   This discharges the hypothesis `Hprune` of WalkFacts.GlobWalk for the programs the model (and, by the tie, the code)
   builds. *)
From WaxModel Require Import Base Token Regex Spec Encode Query Walk.
From WaxProofs Require Import EncodeFacts DepthFacts.
Local Open Scope nat_scope.

(* every literal of the tree is separator-free (the parser never reads `/` into a literal) *)
Fixpoint lits_nosep (t : tok) : bool :=
  match t with
  | TLeaf _ (LLit _ s) => nosep s
  | TLeaf _ _ => true
  | TAlt _ bs => forallb lits_nosep bs
  | TCat _ ts => forallb lits_nosep ts
  | TRep _ b _ _ => lits_nosep b
  end.

(* a name of a directory entry *)
Definition valid_name (n : str) : Prop := n <> [] /\ nosep n = true.

Lemma nosep_app : forall u v, nosep (u ++ v) = nosep u && nosep v.
Proof. intros. unfold nosep. apply forallb_app. Qed.

Lemma nosep_single : forall c, c <> SEP -> nosep [c] = true.
Proof. intros c H. apply N.eqb_neq in H. cbn. rewrite H. reflexivity. Qed.

Lemma existsb_false : forall {A} (f : A -> bool) l, existsb f l = false <-> Forall (fun a => f a = false) l.
Proof.
  intros A f l. induction l as [|a l IH]; cbn [existsb]; [split; constructor|].
  rewrite orb_false_iff, Forall_cons_iff, IH. reflexivity.
Qed.

Lemma boundary_is_sep_or_tree : forall t, is_boundary t = true ->
  exists sp, t = TLeaf sp LSep \/ exists root, t = TLeaf sp (LTree root).
Proof. intros [sp [| | | | |root]| | |] H; try discriminate; exists sp; [left|right; exists root]; reflexivity. Qed.

Lemma seq_aux_indep : forall fs first first' s e s' e',
  Forall (fun f : bool -> bool -> re => forall a b a' b', f a b = f a' b') fs ->
  seq_edges_aux first fs s e = seq_edges_aux first' fs s' e'.
Proof.
  induction fs as [|f fs IH]; intros first first' s e s' e' H; [reflexivity|].
  inversion H as [|? ? Hf Hfs]; subst. cbn [seq_edges_aux]. destruct fs as [|g fs']; [apply Hf|].
  rewrite (Hf (s && first) false (s' && first') false). f_equal. apply IH. exact Hfs.
Qed.

Lemma nb_edges : forall t cap, has_boundary t = false -> forall s e s' e', enc_tok cap t s e = enc_tok cap t s' e'.
Proof.
  induction t as [sp l|sp bs IH|sp ts IH|sp b lo hi IH] using tok_ind'; intros cap Hb s e s' e'.
  - destruct l; cbn in Hb |- *; try reflexivity; discriminate.
  - cbn [enc_tok]. f_equal. f_equal. cbn [has_boundary] in Hb. apply existsb_false in Hb.
    rewrite Forall_forall in IH, Hb. apply map_ext_in. intros b Hin. f_equal. apply IH; auto.
  - cbn [enc_tok]. unfold seq_edges. apply seq_aux_indep, Forall_map. cbn [has_boundary] in Hb. apply existsb_false in Hb.
    rewrite Forall_forall in *. intros t Hin a b a' b'. apply IH; auto.
  - cbn [enc_tok]. cbn [has_boundary] in Hb. rewrite (IH false Hb s e s' e'). reflexivity.
Qed.

Section Prune.
Variable orbit : char -> list char.
Hypothesis orbit_nosep : forall c d, In d (orbit c) -> d <> SEP.
Notation sem := (sem orbit).

Lemma iter_nosep : forall (L : str -> Prop) k w, (forall u, L u -> nosep u = true) -> iter_sem L k w -> nosep w = true.
Proof.
  intros L k w HL H. induction H as [|n u v Hu _ IH]; [reflexivity|]. rewrite nosep_app, (HL u Hu), IH. reflexivity.
Qed.

Lemma seq_aux_app : forall fs1 fs2 first s e w, fs1 <> [] ->
  sem (seq_edges_aux first (fs1 ++ fs2) s e) w ->
  exists u v, w = u ++ v /\ sem (seq_edges_aux first fs1 s (e && is_nil fs2)) u /\ sem (seq_edges_aux false fs2 s e) v.
Proof.
  induction fs1 as [|f fs1 IH]; intros fs2 first s e w H1 Hs; [congruence|].
  destruct fs1 as [|g fs1'].
  - apply sem_seq_edges_aux_cons in Hs. exact Hs.
  - cbn [app seq_edges_aux Regex.sem] in Hs. destruct Hs as (u & v & -> & Hu & Hv).
    destruct (IH fs2 false s e v ltac:(discriminate) Hv) as (u' & v' & -> & Hu' & Hv').
    exists (u ++ u'), v'. split; [apply app_assoc|]. split; [|exact Hv'].
    cbn [seq_edges_aux Regex.sem]. exists u, u'. split; [reflexivity|]. split; [exact Hu|exact Hu'].
Qed.

Lemma seq_aux_nosep : forall fs first s e w,
  Forall (fun f : bool -> bool -> re => forall a b u, sem (f a b) u -> nosep u = true) fs ->
  sem (seq_edges_aux first fs s e) w -> nosep w = true.
Proof.
  induction fs as [|f fs IH]; intros first s e w H Hs.
  - cbn in Hs. subst w. reflexivity.
  - inversion H as [|? ? Hf Hfs]; subst. apply sem_seq_edges_aux_cons in Hs as (u & v & -> & Hu & Hv).
    rewrite nosep_app, (Hf _ _ _ Hu), (IH _ _ _ _ Hfs Hv). reflexivity.
Qed.

Lemma nb_nosep : forall t cap s e w,
  has_boundary t = false -> lits_nosep t = true -> sem (enc_tok cap t s e) w -> nosep w = true.
Proof.
  induction t as [sp l|sp bs IH|sp ts IH|sp b lo hi IH] using tok_ind'; intros cap s e w Hb Hl Hs.
  - destruct l as [ci x| |neg a| |lz|root]; cbn in Hb; try discriminate.
    + cbn [enc_tok enc_leaf Regex.sem] in Hs. cbn [lits_nosep] in Hl. eapply lit_sem_nosep; eassumption.
    + cbn [enc_tok] in Hs. apply class_sem_nosep in Hs as [c [-> Hc]]. apply nosep_single, Hc.
    + cbn [enc_tok] in Hs. apply (proj1 (one_sem _ _ _ _ _)) in Hs as [c [-> Hc]]. apply nosep_single, Hc.
    + cbn [enc_tok] in Hs. apply (proj1 (zom_sem _ _ _ _ _ _)) in Hs. exact Hs.
  - cbn [enc_tok] in Hs. unfold grp in Hs. cbn [Regex.sem] in Hs. cbn [has_boundary] in Hb. cbn [lits_nosep] in Hl.
    destruct bs as [|b0 bs0]; [cbn in Hs; subst w; reflexivity|].
    apply sem_ralt_list in Hs; [|discriminate]. destruct Hs as [r [Hin Hr]]. apply in_map_iff in Hin. destruct Hin as [b [<- Hinb]].
    cbn [Regex.sem] in Hr. apply existsb_false in Hb. rewrite forallb_forall in Hl. rewrite Forall_forall in IH, Hb.
    exact (IH b Hinb _ _ _ _ (Hb b Hinb) (Hl b Hinb) Hr).
  - cbn [enc_tok] in Hs. unfold seq_edges in Hs. eapply seq_aux_nosep; [|exact Hs]. clear Hs. apply Forall_map.
    cbn [has_boundary] in Hb. apply existsb_false in Hb. cbn [lits_nosep] in Hl. rewrite forallb_forall in Hl.
    rewrite Forall_forall in *. intros t Hin a b u Hu. eapply IH; eauto.
  - cbn [enc_tok] in Hs. destruct (norm_bounds lo hi) as [lo' hi']. unfold grp in Hs. cbn [Regex.sem] in Hs.
    destruct Hs as [k [_ Hk]]. eapply iter_nosep; [|exact Hk]. intros u Hu. cbn [Regex.sem] in Hu.
    cbn [has_boundary] in Hb. cbn [lits_nosep] in Hl. eapply IH; eassumption.
Qed.

Lemma first_sep_unique : forall u n x y, nosep u = true -> nosep n = true -> u ++ SEP :: x = n ++ SEP :: y -> u = n /\ x = y.
Proof.
  induction u as [|c u IH]; intros [|d n] x y Hu Hn H; cbn [app] in H; inversion H; subst.
  - split; reflexivity.
  - discriminate Hn.
  - discriminate Hu.
  - cbn [nosep forallb] in Hu, Hn. apply andb_prop in Hu as [_ Hu]. apply andb_prop in Hn as [_ Hn].
    destruct (IH n x y Hu Hn H2) as [-> ->]. split; reflexivity.
Qed.

Lemma nosep_no_sep : forall u x y, nosep u = true -> u <> x ++ SEP :: y.
Proof.
  intros u x y Hu ->. rewrite nosep_app in Hu. apply andb_prop in Hu as [_ Hu]. discriminate Hu.
Qed.

Lemma join_cons : forall n rel, rel <> [] -> join_path (n :: rel) = n ++ SEP :: join_path rel.
Proof. intros n [|m rel] H; [congruence|reflexivity]. Qed.

Lemma join_app : forall p r, p <> [] -> r <> [] -> join_path (p ++ r) = join_path p ++ SEP :: join_path r.
Proof.
  induction p as [|c p IH]; intros r Hp Hr; [congruence|]. destruct p as [|d p'].
  - cbn [app]. destruct r; [congruence|]. reflexivity.
  - change ((c :: d :: p') ++ r) with (c :: ((d :: p') ++ r)). rewrite join_cons by (cbn [app]; discriminate).
    rewrite IH by (assumption || discriminate). rewrite (join_cons c (d :: p')) by discriminate. rewrite <- app_assoc. reflexivity.
Qed.

Lemma join_not_sep_first : forall rel x, Forall valid_name rel -> join_path rel <> SEP :: x.
Proof.
  intros [|n rel] x Hv; [discriminate|]. inversion Hv as [|? ? [Hn Hs] _]; subst.
  destruct n as [|c n]; [congruence|].
  destruct rel as [|m rel]; [cbn [join_path]|rewrite join_cons by discriminate; cbn [app]];
    intros E; inversion E; subst; discriminate Hs.
Qed.

Lemma first_component : forall u v n rel,
  Forall valid_name (n :: rel) -> nosep u = true -> join_path (n :: rel) = u ++ v ->
  (v = [] \/ exists x, v = SEP :: x) ->
  u = n /\ ((v = [] /\ rel = []) \/ (rel <> [] /\ v = SEP :: join_path rel)).
Proof.
  intros u v n rel Hv Hu E Hvv. inversion Hv as [|? ? [Hn Hs] Hrel]; subst. destruct rel as [|m rel].
  - cbn [join_path] in E. destruct Hvv as [->|[x ->]].
    + rewrite app_nil_r in E. split; [symmetry; exact E|left; split; reflexivity].
    + exfalso. eapply nosep_no_sep; [exact Hs|exact E].
  - rewrite join_cons in E by discriminate. destruct Hvv as [->|[x ->]].
    + rewrite app_nil_r in E. exfalso. eapply nosep_no_sep; [exact Hu|symmetry; exact E].
    + symmetry in E. destruct (first_sep_unique _ _ _ _ Hu Hs E) as [-> ->]. split; [reflexivity|right; split; [discriminate|reflexivity]].
Qed.

Lemma take_nonboundary_spec : forall ts a b, take_nonboundary ts = (a, b) ->
  ts = a ++ b /\ Forall (fun t => is_boundary t = false) a /\ (b = [] \/ exists tb b', b = tb :: b' /\ is_boundary tb = true).
Proof.
  induction ts as [|t ts IH]; intros a b H; cbn [take_nonboundary] in H.
  - inversion H; subst. split; [reflexivity|]. split; [constructor|left; reflexivity].
  - destruct (is_boundary t) eqn:Et.
    + inversion H; subst. split; [reflexivity|]. split; [constructor|]. right. exists t, ts. split; [reflexivity|exact Et].
    + destruct (take_nonboundary ts) as [a' b'] eqn:E. inversion H; subst. destruct (IH _ _ eq_refl) as [-> [Ha Hb]].
      split; [reflexivity|]. split; [constructor; assumption|exact Hb].
Qed.

Lemma tree_nonstart : forall cap e root v, sem (enc_tree cap false e root) v -> (v = [] /\ e = true) \/ exists x, v = SEP :: x.
Proof.
  intros cap e root v H. destruct e; cbn [enc_tree enc_tree_mid grp Regex.sem] in H.
  - destruct H as [[-> | ->] | [u [v' [-> [-> _]]]]]; [left; split; reflexivity|right; eexists; reflexivity|right; eexists; reflexivity].
  - destruct H as [-> | [u [v' [-> [-> _]]]]]; right; eexists; reflexivity.
Qed.

Definition nb_comp (c : list tok) : Prop := existsb has_boundary c = false.

Lemma comp_indep : forall c first s e, nb_comp c ->
  seq_edges_aux first (map (enc_tok true) c) s e = enc_component c.
Proof.
  intros c first s e H. unfold enc_component, seq_edges. apply seq_aux_indep, Forall_map. apply existsb_false in H.
  eapply Forall_impl; [|exact H]. intros t Ht a b a' b'. apply nb_edges, Ht.
Qed.

Lemma comp_nosep : forall c w, nb_comp c -> forallb lits_nosep c = true -> sem (enc_component c) w -> nosep w = true.
Proof. intros c w H Hl Hs. exact (nb_nosep (TCat (0, 0)%N c) true true true w H Hl Hs). Qed.

Lemma after_component : forall b v,
  (b = [] \/ exists tb b', b = tb :: b' /\ is_boundary tb = true) ->
  sem (seq_edges_aux false (map (enc_tok true) b) true true) v -> v = [] \/ exists x, v = SEP :: x.
Proof.
  intros b v [->|(tb & b' & -> & Htb)] Hv; [left; exact Hv|].
  cbn [map] in Hv. apply sem_seq_edges_aux_cons in Hv as (u1 & v2 & -> & Hu1 & Hv2).
  destruct (boundary_is_sep_or_tree tb Htb) as [sp [->|[root ->]]]; cbn [enc_tok enc_leaf] in Hu1.
  - right. cbn in Hu1. subst u1. eexists. reflexivity.
  - apply tree_nonstart in Hu1 as [[-> He]|[x ->]]; [|right; eexists; reflexivity].
    destruct b'; [|discriminate]. left. exact Hv2.
Qed.

(* the main induction: along the components of the path, and of the pattern with them *)
Lemma prune_aux : forall rel fuel ts first,
  length ts < fuel -> forallb lits_nosep ts = true -> Forall valid_name rel ->
  sem (seq_edges_aux first (map (enc_tok true) ts) true true) (join_path rel) ->
  forall i c comp, nth_error rel i = Some c ->
    nth_error (take_until_boundary (components_f fuel ts)) i = Some comp -> sem (enc_component comp) c.
Proof.
  induction rel as [|n rel IH]; intros fuel ts first Hlen Hl Hv Hs i c comp Hc Hcomp; [destruct i; discriminate|].
  destruct fuel as [|f]; [lia|]. destruct ts as [|t r]; [destruct i; discriminate|]. cbn [components_f] in Hcomp.
  cbn [forallb] in Hl. apply andb_prop in Hl as [Hlt Hlr].
  destruct (is_sep t) eqn:Esep.
  { (* a separator where a component of the path begins: no path of valid names is accepted *)
    exfalso. destruct t as [sp [| | | | |]| | |]; try discriminate. cbn [map] in Hs.
    apply sem_seq_edges_aux_cons in Hs as (u & v & E & Hu & _). cbn in Hu. subst u. eapply join_not_sep_first; eassumption. }
  destruct (is_tree t) eqn:Etree.
  { destruct t as [sp [| | | | |]| | |]; try discriminate. cbn in Hcomp. destruct i; discriminate. }
  destruct (take_nonboundary r) as [a b] eqn:Etake. cbn [take_until_boundary] in Hcomp.
  destruct (existsb has_boundary (t :: a)) eqn:Enb; [destruct i; discriminate|].
  destruct (take_nonboundary_spec _ _ _ Etake) as [-> [Ha Hb]].
  rewrite forallb_app in Hlr. apply andb_prop in Hlr as [Hla Hlb].
  (* the first component of the pattern matches a separator-free first part [u] of the path, which is followed by nothing
     or by a separator: [u] is the first component of the path *)
  change (t :: a ++ b) with ((t :: a) ++ b) in Hs. rewrite map_app in Hs.
  apply seq_aux_app in Hs as (u & v & E & Hu & Hv0); [|discriminate].
  rewrite (comp_indep (t :: a) _ _ _ Enb) in Hu.
  assert (Hnu : nosep u = true).
  { eapply comp_nosep; [exact Enb| |exact Hu]. cbn [forallb]. rewrite Hlt, Hla. reflexivity. }
  destruct (first_component u v n rel Hv Hnu E (after_component _ _ Hb Hv0)) as [-> Hrest].
  destruct i as [|i]; [cbn in Hc, Hcomp; inversion Hc; inversion Hcomp; subst; exact Hu|].
  cbn [nth_error] in Hc, Hcomp.
  (* a further component of the path: the pattern goes on with a separator, and the rest of the one matches the rest of
     the other *)
  destruct Hrest as [[_ ->]|[_ ->]]; [destruct i; discriminate|].
  destruct Hb as [->|(tb & b' & -> & Htb)]; [discriminate|].
  destruct f as [|f']; [destruct i; discriminate|]. cbn [components_f] in Hcomp.
  destruct (boundary_is_sep_or_tree tb Htb) as [sp [->|[root ->]]]; [|cbn in Hcomp; destruct i; discriminate].
  cbn [is_sep] in Hcomp. cbn [map] in Hv0. apply sem_seq_edges_aux_cons in Hv0 as (u1 & v2 & E2 & Hu1 & Hv2).
  cbn in Hu1. subst u1. inversion E2; subst v2.
  cbn [forallb] in Hlb. apply andb_prop in Hlb as [_ Hlb'].
  eapply (IH f' b' false); try eassumption; [|exact (Forall_inv_tail Hv)].
  cbn [length] in Hlen. rewrite app_length in Hlen. cbn [length] in Hlen. lia.
Qed.

(* C02 (pruning soundness): for a token tree whose literals are separator-free, whatever path of valid names the complete
   program accepts, every component program accepts the component at its own position *)
Theorem prune_sound : forall t rel,
  lits_nosep t = true -> Forall valid_name rel -> sem (encode t) (join_path rel) ->
  forall i c comp, nth_error rel i = Some c ->
    nth_error (take_until_boundary (components (concatenation t))) i = Some comp -> sem (enc_component comp) c.
Proof.
  intros t rel Hl Hv Hs i c comp Hc Hcomp. unfold components in Hcomp.
  eapply (prune_aux rel (S (length (concatenation t))) (concatenation t) true); try eassumption; [lia| |].
  - destruct t; cbn [concatenation forallb]; try (rewrite Hl; reflexivity). exact Hl.
  - unfold encode in Hs. destruct t as [sp l|sp bs|sp ts|sp b lo hi]; cbn [concatenation map seq_edges_aux andb]; try exact Hs.
Qed.

End Prune.
