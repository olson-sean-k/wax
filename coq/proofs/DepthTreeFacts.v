(* DepthTreeFacts.v -- leaf sequences with boundaries (separators and tree wildcards), for C10 on patterns that contain tree
   wildcards (`src/**/*.rs`, `**/a/*`, `/usr/**`): the reported depth is then a lower bound only, and the bound the algebra
   computes stays below the number of maximal runs of non-boundary leaves (DepthAltFacts).  Here: the sequences in which no two
   boundaries are adjacent, their runs, and the counting half of the argument - every run is a component of every match.
   Last, concatenations of leaves as leaf sequences, and C10 for those without tree wildcards. *)
From WaxModel Require Import Base Token Spec Variance Fold Rule.
From WaxProofs Require Import SpecFacts RuleFacts DepthFacts ExhaustFacts.
Local Open Scope N_scope.
Local Arguments N.add : simpl never.
Local Arguments N.ltb : simpl never.

Definition is_bnd (l : leaf) : bool := match l with LSep | LTree _ => true | _ => false end.
Definition is_tree_leaf (l : leaf) : bool := match l with LTree _ => true | _ => false end.

(* no two boundaries are adjacent ([pb]: the previous leaf is a boundary); [gchain is_bnd] of AdjacencyFacts, where the
   predicate on leaves is a variable, is convertible to it *)
Fixpoint chain_ok (pb : bool) (x : list leaf) : bool :=
  match x with [] => true | a :: r => negb (pb && is_bnd a) && chain_ok (is_bnd a) r end.

(* the number of maximal runs of non-boundary leaves ([pr]: the previous leaf belongs to a run) *)
Fixpoint runs (pr : bool) (x : list leaf) : N :=
  match x with
  | [] => 0
  | a :: r => if is_bnd a then runs false r else (if pr then 0 else 1) + runs true r
  end.

(* the values the algebra reaches without repetitions: exact counts and lower bounds ([shape]; [vform]: those without upper bound),
   read through [lo].  The summary [K] of DepthAltFacts is stated with them. *)
Definition lo (v : nvar) : N := match v with Inv j => j | Var (Bounded (BLower k)) => k | _ => 0 end.
Definition shape (v : nvar) : Prop := match v with Inv _ | Var Unbounded | Var (Bounded (BLower _)) => True | _ => False end.
Definition vform (v : nvar) : Prop := match v with Var Unbounded | Var (Bounded (BLower _)) => True | _ => False end.

(* separators every match must contain: one per separator, one per tree wildcard that is neither an unrooted first one nor the last leaf *)
Fixpoint sb (f : bool) (x : list leaf) : N :=
  match x with
  | [] => 0
  | a :: r => (match a with LSep => 1 | LTree root => if (f && negb root) || is_nil r then 0 else 1 | _ => 0 end) + sb false r
  end.

Section Count.
Variable orbit : char -> list char.
Notation FlatMatch := (Spec.FlatMatch orbit).

Lemma starts_sep_seps : forall u, starts_sep u = true -> 1 <= seps u.
Proof. intros [|c u] H; [discriminate|]. cbn [starts_sep] in H. cbn [seps]. rewrite H. lia. Qed.

Lemma seps_lower : forall x f w, FlatMatch f true x w -> sb f x <= seps w.
Proof.
  induction x as [|a x IH]; intros f w H.
  - inversion H; subst. cbn. lia.
  - inversion H as [|f0 l0 a0 x0 u v Hp Hrest]; subst. rewrite seps_app. cbn [sb]. specialize (IH _ _ Hrest).
    destruct a; cbn [leaf_piece] in Hp; try lia.
    + subst u. cbn. lia.
    + cbn [andb] in Hp. destruct ((f && negb root) || is_nil x) eqn:E; [lia|]. apply orb_false_iff in E. destruct E as [E1 E2].
      unfold tree_piece in Hp. rewrite E1, E2 in Hp. cbn [andb orb] in Hp. apply andb_prop in Hp. destruct Hp as [Hp _].
      rewrite orb_false_r in Hp. apply starts_sep_seps in Hp. lia.
Qed.

Lemma runs_sb : forall x,
  (chain_ok false x = true -> runs true x <= sb false x) /\ (chain_ok true x = true -> runs false x <= sb false x + 1).
Proof.
  induction x as [|a x [IH1 IH2]]; [cbn; split; intros; lia|].
  destruct (is_bnd a) eqn:Eb.
  - split.
    + intros Hc. cbn [chain_ok andb negb] in Hc. rewrite Eb in Hc. cbn [runs]. rewrite Eb. specialize (IH2 Hc). cbn [sb].
      destruct a; try discriminate; [lia|]. cbn [andb orb]. destruct x as [|b x']; [cbn; lia|]. cbn [is_nil]. lia.
    + intros Hc. cbn [chain_ok andb negb] in Hc. rewrite Eb in Hc. discriminate.
  - split.
    + intros Hc. cbn [chain_ok andb negb] in Hc. rewrite Eb in Hc. cbn [runs sb]. rewrite Eb. specialize (IH1 Hc). destruct a; try discriminate; lia.
    + intros Hc. cbn [chain_ok] in Hc. rewrite Eb, andb_false_r in Hc. cbn [negb andb] in Hc. cbn [runs sb]. rewrite Eb. specialize (IH1 Hc). destruct a; try discriminate; lia.
Qed.

Lemma runs_ncomp : forall a x w, chain_ok false (a :: x) = true -> FlatMatch true true (a :: x) w ->
  starts_sep w = leaf_is_rooting a -> 1 <= ncomp w -> runs false (a :: x) <= ncomp w.
Proof.
  intros a x w Hc Hm Hroot Hn. pose proof (seps_lower _ _ _ Hm) as Hs. destruct (runs_sb x) as [R1 R2].
  rewrite (ncomp_seps w Hn), Hroot. cbn [chain_ok andb negb] in Hc. cbn [runs sb] in *. destruct (is_bnd a) eqn:Eb.
  - specialize (R2 Hc). destruct a; try discriminate; cbn [leaf_is_rooting]; [lia|].
    destruct root; cbn [andb negb orb] in Hs; [|lia]. destruct x as [|b x']; [cbn; lia|]. cbn [is_nil] in Hs. lia.
  - specialize (R1 Hc). destruct a; try discriminate; cbn [leaf_is_rooting]; lia.
Qed.

End Count.

Lemma chain_of_tokens : forall ts pb, forallb is_leaf ts = true -> adjacent_boundary ts = None ->
  (pb = true -> match ts with t :: _ => is_boundary t = false | [] => True end) -> chain_ok pb (map leaf_of ts) = true.
Proof.
  induction ts as [|t ts IH]; intros pb Hl Ha Hp; [reflexivity|].
  cbn [forallb] in Hl. apply andb_prop in Hl. destruct Hl as [Ht Hl]. cbn [map chain_ok].
  assert (Eb : is_bnd (leaf_of t) = is_boundary t) by (destruct t as [sp l| | |]; try discriminate; destruct l; reflexivity).
  rewrite Eb. apply andb_true_intro. split.
  - destruct pb; [|reflexivity]. rewrite (Hp eq_refl). reflexivity.
  - apply IH; [exact Hl| |].
    + destruct ts as [|t1 ts']; [reflexivity|]. cbn [adjacent_boundary] in Ha. destruct (is_boundary t && is_boundary t1); [discriminate|exact Ha].
    + intros Hb. destruct ts as [|t1 ts']; [exact I|]. cbn [adjacent_boundary] in Ha. rewrite Hb in Ha. cbn [andb] in Ha.
      destruct (is_boundary t1); [discriminate|reflexivity].
Qed.

Lemma depth_fold_leaves : forall ts, forallb is_leaf ts = true ->
  rmapM depth_fold ts = Ok (map (fun t => Some (depth_leaf (leaf_of t))) ts).
Proof.
  induction ts as [|t ts IH]; intros Hf; [reflexivity|].
  cbn [forallb] in Hf. apply andb_prop in Hf. destruct Hf as [Ht Hf]. cbn [rmapM rbind map].
  destruct t as [sp l| | |]; try discriminate. cbn [depth_fold rbind leaf_of]. rewrite (IH Hf). reflexivity.
Qed.

Lemma depth_variance_leaves : forall sp ts, forallb is_leaf ts = true ->
  depth_variance (TCat sp ts) =
  (do r <- rreduce bterm_conj (map depth_leaf (map leaf_of ts)); bterm_finalize (match r with Some x => x | None => bterm_zero end)).
Proof.
  intros sp ts Hl. unfold depth_variance. cbn [depth_fold]. rewrite (depth_fold_leaves ts Hl). cbn [rbind].
  rewrite (opt_list_map_some (fun t => depth_leaf (leaf_of t))), <- (map_map leaf_of depth_leaf). reflexivity.
Qed.

Lemma lang_leaves : forall orbit sp ts p, forallb is_leaf ts = true -> Lang orbit (TCat sp ts) p ->
  FlatMatch orbit true true (map leaf_of ts) p.
Proof.
  intros orbit sp ts p Hl [x [Hx Hm]]. inversion Hx as [| |? ? xs HF|]; subst. rewrite (expands_leaves ts xs Hl HF) in Hm. exact Hm.
Qed.

Lemma flat_cat_parts : forall ts, flat_cat ts = true ->
  forallb is_leaf ts = true /\ forallb leaf_ok (map leaf_of ts) = true /\ exists l0 rest, map leaf_of ts = l0 :: rest.
Proof.
  intros ts H. unfold flat_cat in H. apply andb_prop in H. destruct H as [Hne Hall]. rewrite forallb_forall in Hall.
  split; [|split; [|destruct ts; [discriminate|cbn [map]; eauto]]]; apply forallb_forall.
  - intros t Ht. specialize (Hall t Ht). apply andb_prop in Hall. destruct t as [sp [] | | |]; try reflexivity; destruct Hall; discriminate.
  - intros l Hl. apply in_map_iff in Hl. destruct Hl as [t [<- Ht]]. specialize (Hall t Ht). apply andb_prop in Hall. apply Hall.
Qed.

Theorem depth_flat : forall sp ts v, flat_cat ts = true -> depth_variance (TCat sp ts) = Ok v ->
  v = Inv (flat_depth (map leaf_of ts)).
Proof.
  intros sp ts v Hf Hv. destruct (flat_cat_parts ts Hf) as [Hl [Hok [l0 [rest E]]]]. rewrite (depth_variance_leaves sp ts Hl) in Hv.
  rewrite E in *. exact (flat_leaves_depth l0 rest v Hok Hv).
Qed.

(* C10 on flat patterns: the number of components of every canonical path of the documented language, that has at least one
   component and begins with a separator exactly when the pattern does, is the reported depth *)
Theorem depth_flat_sound : forall (orbit : char -> list char), (forall c d, In d (orbit c) -> d <> SEP) ->
  forall sp ts v p l0 rest,
  flat_cat ts = true -> map leaf_of ts = l0 :: rest ->
  depth_variance (TCat sp ts) = Ok v -> Lang orbit (TCat sp ts) p ->
  canonical p = true -> 1 <= ncomp p -> starts_sep p = is_sep_leaf l0 ->
  in_variance (ncomp p) v.
Proof.
  intros orbit Ho sp ts v p l0 rest Hf Hls Hv HL Hcan Hn Hroot. rewrite (depth_flat sp ts v Hf Hv). cbn [in_variance].
  destruct (flat_cat_parts ts Hf) as [Hl [Hok _]]. pose proof (lang_leaves orbit sp ts p Hl HL) as Hm. rewrite Hls in *.
  exact (flat_leaves_sound orbit Ho l0 rest p Hok Hm Hcan Hn Hroot).
Qed.
