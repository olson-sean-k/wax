(* RuleAdjRep.v -- C06 with repetitions: if the check passes, no expansion of the tree has two adjacent boundaries, for the trees [shr] whose
   repetitions are written out at least once and whose bodies begin and end with a leaf (the wrap-around adjacency of a body is only
   checked on leaf terminals: known class wraparound_nested_edge; a repetition that may be written out zero times lets its neighbours
   meet).  The induction of RuleAdjFacts, where the copies of a body meet at its leaf terminals, which check_repetition compared
   ([rep_wrap_body]); the theorem is [check_no_adjacent_boundaries_r]. *)
From WaxModel Require Import Base Token Spec Rule.
From WaxProofs Require Import SpecFacts RuleFacts FuelFacts DepthTreeFacts DepthAltFacts AdjacencyFacts RuleAdjFacts ExhaustFacts.
Local Open Scope nat_scope.

Definition leaf_ends (b : tok) : bool :=
  match concatenation b with
  | m :: rest => is_leaf m && match last_opt (m :: rest) with Some e => is_leaf e | None => false end
  | [] => false
  end.

Fixpoint shr (t : tok) : bool :=
  match t with
  | TLeaf _ _ => true
  | TAlt _ bs => forallb (fun b => is_cat b && shr b) bs
  | TCat _ ts => forallb (fun m => negb (is_cat m) && shr m) ts
  | TRep _ b lo _ => is_cat b && shr b && (1 <=? lo)%N && leaf_ends b
  end.

Lemma rep_parts : forall sp b lo hi, shr (TRep sp b lo hi) = true -> is_cat b = true /\ shr b = true /\ (1 <= lo)%N /\ leaf_ends b = true.
Proof.
  intros sp b lo hi Hs. cbn [shr] in Hs. apply andb_prop in Hs. destruct Hs as [Hs Hle]. apply andb_prop in Hs. destruct Hs as [Hs Hlo]. apply andb_prop in Hs. destruct Hs as [Hc Hsb].
  apply N.leb_le in Hlo. auto.
Qed.

Lemma shr_child : forall t c, shr t = true -> In c (children t) -> shr c = true.
Proof.
  intros [sp l|sp bs|sp ts|sp b lo hi] c H Hin; cbn [children] in Hin; [contradiction| | |destruct Hin as [<-|[]]; apply (rep_parts _ _ _ _ H)];
    cbn [shr] in H; rewrite forallb_forall in H; specialize (H c Hin); apply andb_prop in H; exact (proj2 H).
Qed.

Lemma shr_flat : forall t, shr t = true -> cats_flat t.
Proof. intros t Hs sp ts Hsub. exact (members_flat shr ts (sub_closed (fun c => shr c = true) shr_child _ _ Hsub Hs)). Qed.

Lemma shr_solid : forall t, nonempty_branches t = true -> shr t = true -> solid t.
Proof. apply (class_solid shr shr_child). intros sp b lo hi H. exact (proj1 (proj2 (proj2 (rep_parts sp b lo hi H)))). Qed.

Lemma ends_b_sound_r : forall t, nonempty_branches t = true -> shr t = true -> ends_b t = false ->
  forall x, Expands t x -> lb x = false.
Proof. intros t Hn Hs. exact (ends_sound is_boundary is_bnd is_boundary_lift t (shr_solid t Hn Hs)). Qed.

Definition rep_ok (o : outer) (b : tok) (lo : N) (hi : option N) : Prop :=
  match terminals_of (concatenation b) with Some tm => check_repetition tm o lo hi = None | None => True end.

Lemma leaf_ends_inv : forall b, leaf_ends b = true ->
  exists s1 l1 rest se le, concatenation b = TLeaf s1 l1 :: rest /\ last_opt (concatenation b) = Some (TLeaf se le).
Proof.
  intros b H. unfold leaf_ends in H. destruct (concatenation b) as [|m1 rest]; [discriminate|]. apply andb_prop in H. destruct H as [H1 H2].
  destruct (last_opt (m1 :: rest)) as [e|]; [|discriminate]. destruct m1 as [s1 l1| | |]; try discriminate. destruct e as [se le| | |]; try discriminate.
  exists s1, l1, rest, se, le. split; reflexivity.
Qed.

Lemma rep_wrap_body : forall o b lo hi, leaf_ends b = true -> term_ok_b o b -> rep_ok o b lo hi ->
  forall y y', Expands b y -> Expands b y' -> glast is_bnd y && gfirst is_bnd y' = false.
Proof.
  intros o b lo hi Hle Ht Hr y y' Hy Hy'. destruct (leaf_ends_inv b Hle) as [s1 [l1 [rest [se [le [Ec El]]]]]].
  rewrite (last_member_last is_bnd b se le y El Hy), (first_member_first is_bnd b s1 l1 rest y' Ec Hy').
  destruct (terminals_of_ends (concatenation b)) as [tm [rest' [Et [E1 E2]]]]; [rewrite Ec; discriminate|].
  unfold term_ok_b, rep_ok in Ht, Hr. rewrite Et in Ht, Hr. pose proof (check_repetition_none tm o lo hi Ht Hr) as H.
  rewrite Ec in E1. injection E1 as E1 _. rewrite El in E2. injection E2 as E2. rewrite <- E1, <- E2, !is_boundary_lift in H.
  rewrite andb_comm. exact H.
Qed.

Lemma rep_wrap : forall o spb tsb lo hi, leaf_ends (TCat spb tsb) = true -> term_ok_b o (TCat spb tsb) -> rep_ok o (TCat spb tsb) lo hi ->
  forall y y', Expands (TCat spb tsb) y -> Expands (TCat spb tsb) y' -> lb y && fb y' = false.
Proof. intros o spb tsb. exact (rep_wrap_body o (TCat spb tsb)). Qed.

Lemma shr_reps_wrap : forall t, shr t = true -> reps_wrap is_bnd t.
Proof.
  intros t Hs sp b lo hi Hsub o l r He. pose proof (sub_closed (fun c => shr c = true) shr_child _ _ Hsub Hs) as Hc.
  destruct (rep_parts _ _ _ _ Hc) as [_ [_ [_ Hle]]]. destruct (step_err_rep_none o l sp b lo hi r He) as [Ht Hr].
  exact (rep_wrap_body (outer_or o l r) b lo hi Hle Ht Hr).
Qed.

Theorem check_no_adjacent_boundaries_r : forall t, check t = Ok None -> shr t = true -> nonempty_branches t = true ->
  forall x, Expands t x -> chain_ok false x = true.
Proof.
  intros t Hck Hs Hn x Hx.
  destruct (item_claims is_boundary is_bnd is_boundary_lift (fun tm o H => proj1 (check_branch_none tm o H)) t (shr_solid t Hn Hs) (shr_flat t Hs)
              (cats_ok_apart t (built_no_adjacent_boundary_everywhere t Hck)) (shr_reps_wrap t Hs)) as [H _].
  exact (proj1 (H outer_default (check_item_ok t Hck) x Hx)).
Qed.
