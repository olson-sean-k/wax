(* RuleCompleteZom.v -- C06, no false rejection for the rule on zero-or-more wildcards: for expressions without repetitions, an
   AdjacentZeroOrMore verdict of the branch check always has a witness expansion with two adjacent zero-or-more wildcards (the witness
   of RuleCompleteFacts at the leaf predicate [is_zl]). *)
From WaxModel Require Import Base Token Spec Rule.
From WaxProofs Require Import RuleFacts RuleZomFacts RuleCompleteFacts.

(* C06: an AdjacentZeroOrMore verdict on a tree without repetitions always has a witness *)
Theorem check_adjacent_zom_is_real : forall t sp, good t ->
  check t = Ok (Some (AdjacentZeroOrMore, sp)) -> exists x, Expands t x /\ zchain false x = false.
Proof.
  intros t sp Hg H. destruct (check_some t _ sp H) as [[Hk _]|[Hk|[Hb|Hk]]]; try discriminate.
  exact (branch_witness is_zom is_zl AdjacentZeroOrMore is_zom_lift (fun tm o => check_branch_some tm o AdjacentZeroOrMore)
           ltac:(discriminate) t sp Hg Hb).
Qed.
