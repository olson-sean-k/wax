(* RuleZomFacts.v -- C06: the rule "no two zero-or-more wildcards become adjacent" over *expansions*: inside one concatenation the
   parser enforces it (ZomFacts: [zom_ok_cats]), across the borders of alternations the branch check does, through the same inherited
   outer context as for boundaries (the item claims of RuleAdjFacts at the leaf predicate [is_zl]; the theorems are in RuleZomRep). *)
From WaxModel Require Import Base Token Spec Rule.
From WaxProofs Require Import SpecFacts FuelFacts DepthAltFacts ZomFacts AdjacencyFacts RuleAdjFacts.
Local Open Scope nat_scope.

Definition is_zl (l : leaf) : bool := match l with LZom _ => true | _ => false end.
(* [lz] is [glast is_zl] and [zchain] is [gchain is_zl] of AdjacencyFacts, by conversion *)
Definition lz (x : list leaf) : bool := match last_opt x with Some a => is_zl a | None => false end.
(* no two zero-or-more wildcards are adjacent ([pz]: the previous leaf is one) *)
Fixpoint zchain (pz : bool) (x : list leaf) : bool :=
  match x with [] => true | a :: r => negb (pz && is_zl a) && zchain (is_zl a) r end.

Lemma is_zom_lift : forall t, is_zom t = match t with TLeaf _ l => is_zl l | _ => false end.
Proof. intros [sp []| | |]; reflexivity. Qed.

Definition ends_z (t : tok) : bool := ends_with is_zom t.

Lemma ends_z_sound : forall t, nonempty_branches t = true -> rep_free t = true -> ends_z t = false ->
  forall x, Expands t x -> lz x = false.
Proof. intros t Hn Hr. exact (ends_sound is_zom is_zl is_zom_lift t (rep_free_solid t Hn Hr)). Qed.

Definition zcats_ok (t : tok) : Prop := forall sp ts, sub (TCat sp ts) t -> adj_zom ts = false.

Lemma zom_ok_child : forall t c, zom_ok t = true -> In c (children t) -> zom_ok c = true.
Proof.
  intros [sp l|sp bs|sp ts|sp b lo hi] c H Hin; cbn [children zom_ok] in *; [contradiction| | |destruct Hin as [<-|[]]; exact H].
  - rewrite forallb_forall in H. exact (H c Hin).
  - apply andb_prop in H. destruct H as [_ H]. rewrite forallb_forall in H. exact (H c Hin).
Qed.

Lemma zom_ok_cats : forall t, zom_ok t = true -> zcats_ok t.
Proof.
  intros t H sp ts Hs. pose proof (sub_closed (fun c => zom_ok c = true) zom_ok_child _ _ Hs H) as Hc.
  cbn [zom_ok] in Hc. apply andb_prop in Hc. apply negb_true_iff. exact (proj1 Hc).
Qed.

Lemma adj_zom_apart : forall ts, adj_zom ts = false -> apart is_zom ts.
Proof.
  induction ts as [|a ts IH]; intros H; [exact I|]. destruct ts as [|b r]; [exact I|].
  cbn [adj_zom] in H. apply orb_false_iff in H. split; [exact (proj1 H)|exact (IH (proj2 H))].
Qed.

Lemma zcats_ok_apart : forall t, zcats_ok t -> gcats is_zom t.
Proof. intros t H sp ts Hsub. exact (adj_zom_apart ts (H sp ts Hsub)). Qed.
