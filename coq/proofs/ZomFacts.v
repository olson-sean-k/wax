(* ZomFacts.v -- C06: the parser itself never produces two adjacent zero-or-more wildcards inside one concatenation
   (`**` is a tree wildcard, `*$`, `$*`, `$$`, `*(?i)*` ... do not parse): a zero-or-more wildcard is only read when
   what follows it (after flags) is not `*` or `$`, or is the terminator of the sub-expression. *)
From WaxModel Require Import Base Token Parse.
From WaxProofs Require Import SpecFacts ParseRel.

Definition head_in (s : str) (cs : list char) : bool := match s with c :: _ => mem c cs | [] => false end.
Definition zom_head (i : input) : bool := head_in (i_s (flags_with_state i)) [c_star; c_dollar].

Fixpoint adj_zom (ts : list tok) : bool :=
  match ts with
  | a :: ((b :: _) as r) => (is_zom a && is_zom b) || adj_zom r
  | _ => false
  end.

(* no concatenation anywhere in the tree has two adjacent zero-or-more wildcards *)
Fixpoint zom_ok (t : tok) : bool :=
  match t with
  | TLeaf _ _ => true
  | TAlt _ bs => forallb zom_ok bs
  | TCat _ ts => negb (adj_zom ts) && forallb zom_ok ts
  | TRep _ b _ _ => zom_ok b
  end.

Lemma zom_lookahead_head : forall i, zom_lookahead i = true -> zom_head i = false.
Proof.
  intros i H. unfold zom_lookahead in H. unfold zom_head, head_in.
  change (i_s (flags_without_state i)) with (i_s (flags_with_state i)) in H.
  destruct (i_s (flags_with_state i)) as [|c r]; [reflexivity|]. unfold mem. cbn [existsb]. apply negb_true_iff in H.
  apply orb_false_iff in H. destruct H as [H1 H2]. rewrite H1, H2. reflexivity.
Qed.

Lemma p_wildcard_zom : forall tm i lz i', p_wildcard tm i = Some (LZom lz, i') ->
  head_in (i_s i) [c_star; c_dollar] = true /\ (zom_lookahead i' = true \/ term_ok tm i' = true).
Proof.
  intros tm i lz i' H. apply p_wildcard_inv in H.
  destruct H as [(r & _ & Hl & _)|[(root & i1 & r & _ & _ & Hl & _)|(c & r & Hs & Hc & _ & Hpost)]]; try discriminate Hl.
  split; [|exact Hpost]. rewrite Hs. destruct Hc as [[-> _]|[-> _]]; reflexivity.
Qed.

Lemma term_not_zom_head : forall tm i, term_ok tm i = true -> zom_head i = false.
Proof.
  intros tm i H. unfold zom_head, term_ok in *. destruct (flags_head i) as [->|[r Hr]].
  - destruct tm; destruct (i_s i) as [|c r]; try discriminate; try reflexivity.
    + apply orb_prop in H. destruct H as [H|H]; apply N.eqb_eq in H; subst c; reflexivity.
    + apply orb_prop in H. destruct H as [H|H]; apply N.eqb_eq in H; subst c; reflexivity.
  - rewrite Hr in H. destruct tm; discriminate.
Qed.

Lemma Rtoken_zom : forall tm i sp lz i', Rtoken tm i (TLeaf sp (LZom lz)) i' -> zom_head i = true /\ zom_head i' = false.
Proof.
  intros tm i sp lz i' H. apply Rtoken_leaf, Rleaf_wildcard, p_wildcard_zom in H. destruct H as [Hh Hpost]. split; [exact Hh|].
  destruct Hpost as [Hl|Ht]; [apply zom_lookahead_head; exact Hl|eapply term_not_zom_head; exact Ht].
Qed.

Definition first_zom (ts : list tok) : bool := match ts with t0 :: _ => is_zom t0 | [] => false end.

Lemma Rtokens_zom : forall tm i ts i', Rtokens tm i ts i' -> adj_zom ts = false /\ (first_zom ts = true -> zom_head i = true).
Proof.
  intros tm i ts i' H. induction H as [tm i|tm i t i1 ts i2 Ht _ [Ha Hf]]; [split; [reflexivity|discriminate]|].
  assert (Hzom : is_zom t = true -> zom_head i = true /\ zom_head i1 = false).
  { intros Hiz. destruct t as [sp [| | | |lz|]| | |]; try discriminate. eapply Rtoken_zom. exact Ht. }
  split.
  - cbn [adj_zom]. destruct ts as [|t2 ts']; [reflexivity|]. rewrite Ha, orb_false_r.
    destruct (is_zom t) eqn:E1; [|reflexivity]. destruct (is_zom t2) eqn:E2; [|reflexivity]. exfalso.
    destruct (Hzom eq_refl) as [_ Hn]. cbn [first_zom] in Hf. rewrite (Hf E2) in Hn. discriminate.
  - cbn [first_zom]. intros Hiz. exact (proj1 (Hzom Hiz)).
Qed.

(* C06: no concatenation of a parsed expression, at any depth, has two adjacent zero-or-more wildcards *)
Theorem parse_no_adjacent_zom : forall e t, parse e = ParseOk t -> zom_ok t = true.
Proof.
  apply (parse_tree_inv (fun t => zom_ok t = true)).
  - reflexivity.
  - intros sp b lo hi i1 i2 _ Hb _. exact Hb.
  - intros sp bs _ _ Hbs. apply forallb_Forall. exact Hbs.
  - intros tm i ts i' sp Hts _ _ Hok. cbn [zom_ok]. rewrite (proj1 (Rtokens_zom _ _ _ _ Hts)). apply forallb_Forall. exact Hok.
  - reflexivity.
Qed.
