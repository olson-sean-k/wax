(* EscapeFacts.v -- C18 end to end in the model: for every string without backslash and without two adjacent separators,
   shorter than the invariant size limit, the escaped string parses into a flat sequence of case-sensitive literals and
   separators that spells the string, passes the rule checker, compiles, reports the string as its invariant text and
   matches the string and nothing else. *)
From WaxModel Require Import Base Token Parse Regex Encode Variance Fold Rule Query Glob.
From WaxProofs Require Import ParseFacts ParseRel EncodeFacts SpecFacts RuleFacts FuelFacts TextFacts OwnedFacts.

Definition nobs (s : str) : bool := forallb (fun c => negb (N.eqb c BSLASH)) s.

Lemma split_run : forall s, nobs s = true ->
  exists a rest, s = a ++ rest /\ plain a = true /\ (rest = [] \/ exists r, rest = SEP :: r) /\ nobs rest = true.
Proof.
  induction s as [|c s IH]; intros H.
  - exists [], []. repeat split. left. reflexivity.
  - cbn [nobs forallb] in H. apply andb_prop in H. destruct H as [Hc Hs]. fold (nobs s) in Hs.
    destruct (N.eqb_spec c SEP) as [->|Hne].
    + exists [], (SEP :: s). repeat split; [right; eexists; reflexivity|]. cbn [nobs forallb]. exact Hs.
    + destruct (IH Hs) as [a [rest [-> [Ha [Hr Hn]]]]]. exists (c :: a), rest. repeat split; try assumption.
      cbn [plain forallb]. fold (plain a). rewrite Ha, Hc. apply N.eqb_neq in Hne. rewrite Hne. reflexivity.
Qed.

Lemma escape_app : forall a b, escape (a ++ b) = escape a ++ escape b.
Proof.
  induction a as [|c a IH]; intros b; [reflexivity|]. cbn [app escape]. destruct (is_meta_character c); cbn [app]; rewrite IH; reflexivity.
Qed.

Lemma escape_nil : forall s, escape s = [] -> s = [].
Proof. intros [|c s] H; [reflexivity|]. cbn [escape] in H. destruct (is_meta_character c); discriminate. Qed.

(* the text of an escaped string never begins with a character that opens a pattern: `(`, `<`, `{`, `[`, `*`, `$`, `?` *)
Definition opener (c : char) : bool := mem c [c_lparen; c_lt; c_lbrace; c_lbrack; c_star; c_dollar; c_qmark].
Lemma opener_meta : forall c, opener c = true -> is_meta_character c = true.
Proof.
  intros c H. unfold opener, is_meta_character, GLOB_META, mem in *. cbn [existsb] in *.
  repeat match goal with H : (_ || _) = true |- _ => apply orb_prop in H; destruct H as [H|H] end; try discriminate;
    apply N.eqb_eq in H; subst; reflexivity.
Qed.

Lemma escape_head : forall s c r, escape s = c :: r -> opener c = false.
Proof.
  intros [|d s] c r H; [discriminate|]. cbn [escape] in H. destruct (is_meta_character d) eqn:Em.
  - inversion H; subst. reflexivity.
  - inversion H; subst. destruct (opener c) eqn:Eo; [|reflexivity]. apply opener_meta in Eo. congruence.
Qed.

Lemma escape_head_eq : forall k s, opener k = true -> head_eq k (escape s) = None.
Proof.
  intros k s Hk. destruct (escape s) as [|c r] eqn:E; [reflexivity|]. apply escape_head in E. unfold head_eq.
  destruct (N.eqb_spec c k) as [->|]; [congruence|reflexivity].
Qed.

Lemma escape_sep_tail : forall s r, escape s = SEP :: r -> exists s', r = escape s'.
Proof.
  intros [|d s] r H; [discriminate|]. cbn [escape] in H. destruct (is_meta_character d); [discriminate|].
  inversion H; subst. exists s. reflexivity.
Qed.

Lemma flags_noop : forall i s, i_s i = escape s -> flags_with_state i = i.
Proof.
  intros i s H. destruct (flags_head i) as [E|[r E]]; [exact E|]. rewrite E in H. symmetry in H. apply escape_head in H. discriminate H.
Qed.

Lemma p_wildcard_escape : forall tm i s, i_s i = escape s -> p_wildcard tm i = None.
Proof.
  intros tm i s H. destruct (p_wildcard tm i) as [[l i']|] eqn:E; [exfalso|reflexivity]. apply p_wildcard_inv in E.
  assert (Hstar : forall j s' r, i_s j = escape s' -> i_s (flags_with_state j) <> c_star :: r).
  { intros j s' r Hj Hc. rewrite (flags_noop j s' Hj), Hj in Hc. apply escape_head in Hc. discriminate Hc. }
  destruct E as [(r & Hs & _)|[(root & i1 & r & Hst & Hs1 & _)|(c & r & Hs & Hc & _)]].
  - rewrite H in Hs. apply escape_head in Hs. discriminate Hs.
  - destruct Hst as [(r0 & Hs & _ & ->)|(_ & _ & ->)].
    + rewrite H in Hs. apply escape_sep_tail in Hs. destruct Hs as [s' ->]. exact (Hstar (adv1 i SEP (escape s')) s' _ eq_refl Hs1).
    + exact (Hstar _ s _ H Hs1).
  - rewrite H in Hs. apply escape_head in Hs. destruct Hc as [[-> _]|[-> _]]; discriminate Hs.
Qed.

Lemma p_class_escape : forall i s, i_s i = escape s -> p_class i = None.
Proof.
  intros i s H. unfold p_class. rewrite H. destruct (escape s) as [|c r] eqn:E; [reflexivity|]. apply escape_head in E.
  destruct (N.eqb_spec c c_lbrack) as [->|]; [discriminate E|reflexivity].
Qed.

Lemma p_token_escape : forall f tm i s, i_s i = escape s ->
  p_token (S f) tm i =
  match leaf_tok i (p_literal i) with
  | Some x => POk x
  | None =>
      match head_eq SEP (escape s) with
      | Some (c, r) => POk (TLeaf (mk_span i (adv1 i c r)) LSep, adv1 i c r)
      | None => PErr
      end
  end.
Proof.
  intros f tm i s H. rewrite p_token_S, (flags_noop i s H). destruct (leaf_tok i (p_literal i)); [reflexivity|].
  unfold rep_part, alt_part, leaf_part. rewrite H, !escape_head_eq by reflexivity. cbn [or_else].
  rewrite (p_wildcard_escape tm i s H), (p_class_escape i s H). reflexivity.
Qed.

Lemma p_token_sep : forall f tm i r, i_s i = SEP :: escape r ->
  p_token (S f) tm i = POk (TLeaf (mk_span i (adv1 i SEP (escape r))) LSep, adv1 i SEP (escape r)).
Proof. intros f tm i r H. rewrite (p_token_escape f tm i (SEP :: r) H). unfold p_literal. rewrite H. reflexivity. Qed.

Lemma p_token_lit : forall f tm i a rest, i_s i = escape (a ++ rest) -> a <> [] -> plain a = true ->
  (rest = [] \/ exists r, rest = SEP :: r) ->
  exists i', p_token (S f) tm i = POk (TLeaf (mk_span i i') (LLit (i_ci i) a), i') /\ i_s i' = escape rest /\ i_ci i' = i_ci i.
Proof.
  intros f tm i a rest H Ha Hp Hr. rewrite (p_token_escape f tm i _ H).
  unfold p_literal. rewrite H, (lit_chars_escape_app a rest Hp Hr). destruct a as [|c a]; [congruence|]. cbn [is_nil leaf_tok].
  eexists. split; [reflexivity|]. split; reflexivity.
Qed.

Lemma p_token_end : forall f tm i, i_s i = [] -> p_token (S f) tm i = PErr.
Proof. intros f tm i H. rewrite (p_token_escape f tm i [] H). unfold p_literal. rewrite H. reflexivity. Qed.

(* a flat sequence of case-sensitive literals and separators that spells [s] *)
Inductive spells : list tok -> str -> Prop :=
| sp_nil : spells [] []
| sp_lit : forall sp a ts s, spells ts s -> spells (TLeaf sp (LLit false a) :: ts) (a ++ s)
| sp_sep : forall sp ts s, spells ts s -> spells (TLeaf sp LSep :: ts) (SEP :: s).

(* every token takes a character, and [p_tokens] one unit of fuel for each token and one to see the end *)
Lemma p_tokens_escape : forall f tm i s,
  nobs s = true -> i_s i = escape s -> i_ci i = false -> (length (escape s) + 2 <= f)%nat ->
  exists ts i', p_tokens f tm i = POk (ts, i') /\ i_s i' = [] /\ spells ts s.
Proof.
  induction f as [|f IH]; intros tm i s Hn Hs Hci Hf; [lia|]. destruct f as [|f]; [lia|]. rewrite p_tokens_S.
  destruct (split_run s Hn) as [a [rest [-> [Hp [Hr Hnr]]]]]. destruct a as [|c a]; [destruct Hr as [->|[r ->]]|]; cbn [app] in *.
  - rewrite (p_token_end f tm i Hs). exists [], i. split; [reflexivity|]. split; [exact Hs|constructor].
  - change (escape (SEP :: r)) with (SEP :: escape r) in *. rewrite (p_token_sep f tm i r Hs). cbv beta match.
    destruct (IH tm (adv1 i SEP (escape r)) r Hnr eq_refl Hci) as [ts [i' [E [He Hsp]]]]; [cbn [length] in Hf; lia|].
    rewrite E. eexists _, i'. split; [reflexivity|]. split; [exact He|]. constructor. exact Hsp.
  - destruct (p_token_lit f tm i (c :: a) rest Hs ltac:(discriminate) Hp Hr) as [i1 [Et [Hs1 Hc1]]]. rewrite Et, Hci. cbv beta match.
    destruct (IH tm i1 rest Hnr Hs1 (eq_trans Hc1 Hci)) as [ts [i' [E [He Hsp]]]].
    { change (c :: a ++ rest) with ((c :: a) ++ rest) in Hf. rewrite escape_app, app_length in Hf.
      destruct (escape (c :: a)) eqn:Ee; [apply escape_nil in Ee; discriminate|]. cbn [length] in Hf. lia. }
    rewrite E. eexists _, i'. split; [reflexivity|]. split; [exact He|]. exact (sp_lit _ (c :: a) _ _ Hsp).
Qed.

Theorem parse_escape : forall s, nobs s = true -> s <> [] ->
  exists sp ts, parse (escape s) = ParseOk (TCat sp ts) /\ spells ts s /\ ts <> [].
Proof.
  intros s Hn Hne. unfold parse.
  destruct (escape s) as [|c e] eqn:Ee; [apply escape_nil in Ee; congruence|]. rewrite <- Ee.
  destruct (p_tokens_escape (parse_fuel (escape s)) TermTop (set_sub (init_input (escape s))) s Hn eq_refl eq_refl) as [ts [i' [E [He Hsp]]]].
  { unfold parse_fuel. lia. }
  rewrite E. destruct ts as [|t0 ts].
  - inversion Hsp; subst. congruence.
  - rewrite He. eexists _, _. split; [reflexivity|]. split; [exact Hsp|discriminate].
Qed.

Local Arguments N.add : simpl never.
Local Arguments N.ltb : simpl never.
Local Arguments N.leb : simpl never.

(* the same function as DepthFacts.no_double_sep, which lies later in the development *)
Fixpoint no_double_sep (s : str) : bool :=
  match s with
  | a :: ((b :: _) as r) => negb ((a =? SEP) && (b =? SEP)) && no_double_sep r
  | _ => true
  end.

Inductive lit_or_sep : tok -> Prop :=
| ls_lit : forall sp a, lit_or_sep (TLeaf sp (LLit false a))
| ls_sep : forall sp, lit_or_sep (TLeaf sp LSep).

Lemma spells_flat : forall ts s, spells ts s -> Forall lit_or_sep ts.
Proof. intros ts s H. induction H; constructor; try constructor; assumption. Qed.

Lemma plain_head : forall a c r, plain a = true -> a = c :: r -> c <> SEP.
Proof.
  intros a c r Hp ->. cbn [plain forallb] in Hp. apply andb_prop in Hp. destruct Hp as [Hc _]. apply andb_prop in Hc.
  destruct Hc as [Hc _]. apply negb_true_iff, N.eqb_neq in Hc. exact Hc.
Qed.

Lemma no_double_sep_app : forall a s, no_double_sep (a ++ s) = true -> no_double_sep s = true.
Proof.
  induction a as [|c a IH]; intros s H; [exact H|]. apply IH. cbn [app] in H. destruct (a ++ s); [reflexivity|].
  cbn [no_double_sep] in H. apply andb_prop in H. exact (proj2 H).
Qed.

Lemma spells_no_adjacent : forall ts s, spells ts s -> no_double_sep s = true -> adjacent_boundary ts = None.
Proof.
  intros ts s H. induction H as [|sp a ts s Hs IH|sp ts s Hs IH]; intros Hd; [reflexivity| |].
  - cbn [adjacent_boundary]. destruct ts as [|t ts']; [reflexivity|]. cbn [is_boundary tboundary leaf_boundary andb].
    apply IH. eapply no_double_sep_app. exact Hd.
  - cbn [adjacent_boundary]. destruct ts as [|t ts']; [reflexivity|]. pose proof (no_double_sep_app [SEP] _ Hd) as Hd'.
    inversion Hs as [|sp' a' ts0 s0 Hs'|sp' ts0 s0 Hs']; subst.
    + cbn [is_boundary tboundary leaf_boundary andb]. apply IH. exact Hd'.
    + exfalso. cbn [no_double_sep] in Hd. rewrite N.eqb_refl in Hd. discriminate Hd.
Qed.

Lemma tsize_flat : forall ts, Forall lit_or_sep ts -> fold_right (fun b a => (tsize b + a)%nat) 0%nat ts = length ts.
Proof. intros ts Hf. induction Hf as [|t ts Ht _ IH]; [reflexivity|]. cbn [fold_right length]. rewrite IH. destruct Ht; reflexivity. Qed.

Lemma children_flat : forall ts, Forall lit_or_sep ts -> flat_map children ts = [].
Proof. intros ts Hf. induction Hf as [|t ts Ht _ IH]; [reflexivity|]. cbn [flat_map]. rewrite IH. destruct Ht; reflexivity. Qed.

Lemma bad_bounds_flat : forall ts, Forall lit_or_sep ts -> find bad_bounds ts = None.
Proof. intros ts Hf. induction Hf as [|t ts Ht _ IH]; [reflexivity|]. cbn [find]. destruct Ht; exact IH. Qed.

Lemma bstep_flat : forall o ts, Forall lit_or_sep ts -> forall l acc, fold_left (bstep o) (adjacent_aux l ts) acc = acc.
Proof.
  intros o ts Hf. induction Hf as [|t ts Ht _ IH]; intros l acc; [reflexivity|]. cbn [adjacent_aux fold_left]. rewrite IH.
  destruct acc as [err q]. destruct Ht; reflexivity.
Qed.

Lemma bfs_flat : forall sp ts, ts <> [] -> Forall lit_or_sep ts -> bfs (TCat sp ts) = TCat sp ts :: ts.
Proof.
  intros sp ts Hne Hf. unfold bfs. cbn [tsize bfs_levels flat_map children app]. rewrite app_nil_r.
  rewrite (tsize_flat ts Hf). f_equal. destruct ts as [|t0 ts0]; [congruence|]. cbn [length bfs_levels].
  rewrite (children_flat _ Hf). destruct (length ts0); cbn [bfs_levels]; apply app_nil_r.
Qed.

Lemma rule_branch_flat : forall sp ts, Forall lit_or_sep ts -> rule_branch (TCat sp ts) = None.
Proof.
  intros sp ts Hf. unfold rule_branch. cbn [branch_loop]. rewrite branch_item_eq. cbn [concatenation].
  unfold adjacent. rewrite (bstep_flat _ ts Hf). cbn [app]. destruct (tsize (TCat sp ts)); reflexivity.
Qed.

(* the size of a literal or separator leaf; meaningful on [lit_or_sep] tokens only *)
Definition flat_size (t : tok) : N :=
  match t with TLeaf _ (LLit _ a) => blen a | TLeaf _ LSep => 1 | _ => 0 end.

Lemma spells_size : forall ts s, spells ts s -> fold_right (fun t a => flat_size t + a) 0 ts = blen s.
Proof.
  intros ts s H. induction H as [|sp a ts s Hs IH|sp ts s Hs IH]; [reflexivity| |].
  - cbn [fold_right flat_size]. rewrite IH, blen_app. reflexivity.
  - cbn [fold_right flat_size blen]. rewrite IH. reflexivity.
Qed.

Lemma size_variance_leaf : forall t, lit_or_sep t -> size_variance t = Ok (Inv (flat_size t)).
Proof. intros t Ht. destruct Ht; reflexivity. Qed.

Lemma rfold_conj_inv_sum : forall ts acc,
  acc + fold_right (fun t a => flat_size t + a) 0 ts < usize_max1 ->
  rfold nvar_conj (Inv acc) (map (fun t => Inv (flat_size t) : nvar) ts) = Ok (Inv (acc + fold_right (fun t a => flat_size t + a) 0 ts)).
Proof.
  induction ts as [|t ts IH]; intros acc H; cbn [map rfold fold_right] in *; [rewrite N.add_0_r; reflexivity|].
  cbn [nvar_conj]. unfold cadd. destruct (N.ltb_spec (acc + flat_size t) usize_max1) as [_|Hx]; [|lia]. cbn [rbind].
  rewrite IH; [f_equal; f_equal; lia|lia].
Qed.

Lemma size_variance_flat : forall sp ts s, spells ts s -> ts <> [] -> blen s < usize_max1 ->
  size_variance (TCat sp ts) = Ok (Inv (blen s)).
Proof.
  intros sp ts s Hs Hne Hb. unfold size_variance. cbn [size_fold].
  rewrite (rmapM_map_ok size_fold (fun t => Some (Inv (flat_size t) : nvar)) ts).
  2:{ eapply Forall_impl; [|exact (spells_flat ts s Hs)]. intros t Ht. destruct Ht; reflexivity. }
  cbn [rbind]. rewrite (opt_list_map_some (fun t => Inv (flat_size t) : nvar)). destruct ts as [|t0 ts]; [congruence|]. cbn [map rreduce].
  pose proof (spells_size _ _ Hs) as Hsum. cbn [fold_right] in Hsum.
  rewrite (rfold_conj_inv_sum ts (flat_size t0)); [|lia]. cbn [rmap rbind]. rewrite Hsum. reflexivity.
Qed.

Lemma rule_size_leaves : forall ts, Forall lit_or_sep ts -> Forall (fun t => flat_size t < MAX_INVARIANT_SIZE) ts ->
  rule_size_list ts = Ok None.
Proof.
  intros ts Hf. induction Hf as [|t ts Ht _ IH]; intros Hb; [reflexivity|]. inversion Hb as [|? ? Hlt Hb']; subst.
  cbn [rule_size_list]. rewrite (size_variance_leaf t Ht). cbn [rbind].
  destruct (N.leb_spec MAX_INVARIANT_SIZE (flat_size t)) as [Hx|_]; [lia|]. exact (IH Hb').
Qed.

Lemma flat_size_le : forall ts s, spells ts s -> Forall (fun t => flat_size t <= blen s) ts.
Proof.
  intros ts s Hs. rewrite <- (spells_size _ _ Hs). clear Hs. induction ts as [|x ts IH]; constructor; cbn [fold_right]; [lia|].
  eapply Forall_impl; [|exact IH]. cbv beta. intros t Ht. lia.
Qed.

Theorem check_flat : forall sp ts s, spells ts s -> ts <> [] -> no_double_sep s = true -> blen s < MAX_INVARIANT_SIZE ->
  check (TCat sp ts) = Ok None.
Proof.
  intros sp ts s Hs Hne Hd Hb. pose proof (spells_flat _ _ Hs) as Hf. unfold check.
  assert (Hbfs := bfs_flat sp ts Hne Hf).
  unfold rule_boundary. rewrite Hbfs. cbn [first_some_l]. rewrite (spells_no_adjacent _ _ Hs Hd).
  rewrite first_some_l_all_none; [|eapply Forall_impl; [|exact Hf]; intros t Ht; destruct Ht; reflexivity].
  unfold rule_bounds. rewrite Hbfs. cbn [find bad_bounds].
  rewrite (bad_bounds_flat ts Hf), (rule_branch_flat sp ts Hf). unfold rule_size. rewrite Hbfs. cbn [rule_size_list].
  assert (Hmax : MAX_INVARIANT_SIZE < usize_max1) by (unfold MAX_INVARIANT_SIZE, usize_max1; lia).
  rewrite (size_variance_flat sp ts s Hs Hne ltac:(lia)). cbn [rbind].
  destruct (N.leb_spec MAX_INVARIANT_SIZE (blen s)) as [Hx|_]; [lia|].
  apply (rule_size_leaves ts Hf). eapply Forall_impl; [|exact (flat_size_le ts s Hs)]. cbv beta. intros t Ht. lia.
Qed.

Local Arguments N.max : simpl never.

Definition flat_fn (f : bool -> bool -> re) : Prop := (exists a, forall s e, f s e = RLit false a) \/ (forall s e, f s e = RSep).

Lemma flat_enc : forall t, lit_or_sep t -> flat_fn (enc_tok true t).
Proof. intros t Ht. destruct Ht; [left; eexists; reflexivity|right; reflexivity]. Qed.

Lemma seq_flat_limits : forall fs first s e, Forall flat_fn fs ->
  rep_in_limits (seq_edges_aux first fs s e) = true /\ snd (fst (re_views (seq_edges_aux first fs s e))) <= 1 /\
  (forall a b, seq_edges_aux first fs s e <> RAlt a b).
Proof.
  induction fs as [|f fs IH]; intros first s e H; [cbn; repeat split; [lia|discriminate]|].
  inversion H as [|? ? Hf Hfs]; subst. cbn [seq_edges_aux].
  assert (Hhead : forall s' e', rep_in_limits (f s' e') = true /\ snd (fst (re_views (f s' e'))) <= 1 /\ (forall a b, f s' e' <> RAlt a b)).
  { intros s' e'. destruct Hf as [[a Ha]|Hsep]; [rewrite Ha|rewrite Hsep]; cbn; repeat split; try lia; discriminate. }
  destruct fs as [|g fs']; [apply Hhead|].
  destruct (IH false s e Hfs) as [H1 [H2 H3]]. destruct (Hhead (s && first) false) as [Hh1 [Hh2 Hh3]].
  cbn [rep_in_limits]. rewrite H1, Hh1. split; [reflexivity|]. split; [|discriminate].
  set (rest := seq_edges_aux false (g :: fs') s e) in *.
  cbn [re_views]. destruct (fst (re_views (f (s && first) false))) as [na da] eqn:Ea. destruct (fst (re_views rest)) as [nb db] eqn:Eb.
  cbn [fst snd] in *. lia.
Qed.

Lemma compile_ok_flat : forall sp ts, Forall lit_or_sep ts -> compile_ok (encode (TCat sp ts)) = true.
Proof.
  intros sp ts Hf. unfold compile_ok, encode. cbn [enc_tok]. unfold seq_edges.
  assert (Hfs : Forall flat_fn (map (enc_tok true) ts)).
  { apply Forall_map. eapply Forall_impl; [|exact Hf]. exact flat_enc. }
  destruct (seq_flat_limits _ true true true Hfs) as [H1 [H2 _]]. rewrite H1. unfold re_nest, REGEX_NEST_LIMIT.
  apply N.leb_le. lia.
Qed.

Section Text.
Variable has_casing : char -> bool.

(* the text of a literal or separator leaf; meaningful on [lit_or_sep] tokens only *)
Definition flat_text (t : tok) : text :=
  match t with TLeaf _ (LLit _ a) => [FNominal a] | TLeaf _ LSep => [FStructural [SEP]] | _ => [] end.

Lemma fold_conj_texts : forall xs a,
  exists t', fold_left tvar_conj (map (fun x => Inv x : tvar) xs) (Inv a) = Inv t' /\
             text_to_string t' = text_to_string a ++ concat (map text_to_string xs).
Proof.
  induction xs as [|x xs IH]; intros a.
  - exists a. split; [reflexivity|]. cbn. rewrite app_nil_r. reflexivity.
  - cbn [map fold_left tvar_conj]. destruct (IH (text_conj a x)) as [t' [E Hs]]. exists t'. split; [exact E|].
    rewrite Hs, text_conj_string. cbn [concat]. rewrite app_assoc. reflexivity.
Qed.

Lemma spells_text : forall ts s, spells ts s -> concat (map text_to_string (map flat_text ts)) = s.
Proof.
  intros ts s H. induction H as [|sp a ts s Hs IH|sp ts s Hs IH]; [reflexivity| |].
  - cbn [map concat flat_text text_to_string flat_map frag_str]. rewrite IH, app_nil_r. reflexivity.
  - cbn [map concat flat_text text_to_string flat_map frag_str app]. rewrite IH. reflexivity.
Qed.

Lemma text_variance_flat : forall sp ts s, spells ts s -> ts <> [] ->
  exists txt, text_variance has_casing (TCat sp ts) = Ok (Inv txt) /\ text_to_string txt = s.
Proof.
  intros sp ts s Hs Hne. unfold text_variance. cbn [text_fold].
  rewrite (rmapM_map_ok (text_fold has_casing) (fun t => Some (Inv (flat_text t) : tvar)) ts).
  2:{ eapply Forall_impl; [|exact (spells_flat ts s Hs)]. intros t Ht. destruct Ht; reflexivity. }
  cbn [rbind]. rewrite (opt_list_map_some (fun t => Inv (flat_text t) : tvar)), <- (map_map flat_text (fun x => Inv x : tvar)).
  rewrite <- (spells_text _ _ Hs). destruct ts as [|t0 ts]; [congruence|]. cbn [map reduce_pure].
  destruct (fold_conj_texts (map flat_text ts) (flat_text t0)) as [t' [E Ht']]. rewrite E. exists t'. split; [reflexivity|exact Ht'].
Qed.
End Text.

Section Lang.
Variable orbit : char -> list char.

Lemma sem_flat : forall ts s, spells ts s -> forall first s0 e0 w,
  sem orbit (seq_edges_aux first (map (enc_tok true) ts) s0 e0) w <-> w = s.
Proof.
  intros ts s H. induction H as [|sp a ts s Hs IH|sp ts s Hs IH]; intros first s0 e0 w.
  - cbn. split; intros ->; reflexivity.
  - cbn [map]. rewrite sem_seq_edges_aux_cons. cbn [enc_tok enc_leaf sem]. split.
    + intros [u [v [-> [Hu Hv]]]]. apply lit_sem_exact in Hu. apply IH in Hv. subst. reflexivity.
    + intros ->. exists a, s. split; [reflexivity|]. split; [apply lit_sem_refl|apply IH; reflexivity].
  - cbn [map]. rewrite sem_seq_edges_aux_cons. cbn [enc_tok enc_leaf sem]. split.
    + intros [u [v [-> [-> Hv]]]]. apply IH in Hv. subst. reflexivity.
    + intros ->. exists [SEP], s. split; [reflexivity|]. split; [reflexivity|apply IH; reflexivity].
Qed.
End Lang.

Theorem escape_builds_exactly : forall s,
  nobs s = true -> no_double_sep s = true -> blen s < MAX_INVARIANT_SIZE ->
  exists t r, build (escape s) = BuildOk t r /\
    (forall has_casing, exists txt, text_variance has_casing t = Ok (Inv txt) /\ text_to_string txt = s) /\
    (forall orbit w, sem orbit r w <-> w = s).
Proof.
  intros s Hn Hd Hb. destruct s as [|c s'].
  - exists tok_empty, (RLit false []). split; [reflexivity|]. split.
    + intros hc. exists [FNominal []]. split; reflexivity.
    + intros orbit w. cbn [sem]. split; [intros H; inversion H; reflexivity|intros ->; constructor].
  - destruct (parse_escape (c :: s') Hn ltac:(discriminate)) as [sp [ts [Hp [Hs Hne]]]].
    exists (TCat sp ts), (encode (TCat sp ts)). split; [|split].
    + unfold build. rewrite Hp, (check_flat sp ts _ Hs Hne Hd Hb), (compile_ok_flat sp ts (spells_flat _ _ Hs)). reflexivity.
    + intros hc. apply text_variance_flat; assumption.
    + intros orbit w. unfold encode. cbn [enc_tok]. unfold seq_edges. apply sem_flat. exact Hs.
Qed.
