(* AlgebraClosure.v -- C05: the variance algebra is closed on valid operands: none of its `unreachable!()` / `expect`
   sites is reachable; the only way a query on a token tree can fail is a checked addition or multiplication overflowing
   ([safe]).  Holds for every token tree (whatever bounds, nesting, classes).
   The operations are described through the numeric views [lo_of] / [hi_of] of a range ([fco_view], [nvar_conj_ok],
   [nvar_product_ok]); the proofs about depth (C10) and exhaustiveness (C09) compute with these.  [exh_fold_pres]: the
   exhaustiveness fold keeps every property of boundary terms that its operations keep. *)
From WaxModel Require Import Base Token Encode Variance Fold Rule Parse Glob.
From WaxProofs Require Import AlgebraFacts.

Local Arguments N.add : simpl never.
Local Arguments N.sub : simpl never.
Local Arguments N.mul : simpl never.
Local Arguments N.ltb : simpl never.
Local Arguments N.eqb : simpl never.
Local Arguments N.min : simpl never.
Local Arguments N.max : simpl never.
Local Arguments N.pred : simpl never.

Definition safe {A} (P : A -> Prop) (r : res A) : Prop :=
  match r with Ok x => P x | Panic s => s = PanicOverflow end.

Lemma safe_bind : forall {A B} (P : A -> Prop) (Q : B -> Prop) (r : res A) (f : A -> res B),
  safe P r -> (forall x, P x -> safe Q (f x)) -> safe Q (rbind r f).
Proof. intros A B P Q [x|s] f Hr Hf; cbn in *; [apply Hf; exact Hr|exact Hr]. Qed.

Lemma rbind_ok : forall {A B} (r : res A) (f : A -> res B) y, rbind r f = Ok y -> exists x, r = Ok x /\ f x = Ok y.
Proof. intros A B [x|s] f y H; [exists x; split; [reflexivity|exact H]|discriminate]. Qed.

Lemma rreduce_cons_ok : forall {A} (f : A -> A -> res A) a l s, rreduce f (a :: l) = Ok s -> exists c, rfold f a l = Ok c /\ s = Some c.
Proof. intros A f a l s H. cbn [rreduce] in H. destruct (rfold f a l) as [c|]; [|discriminate]. inversion H. exists c. auto. Qed.

Lemma bind_overflow_or : forall {A B} (P : A -> Prop) (r : res A) (f : A -> res B) (y : res B),
  safe P r -> (forall x, P x -> f x = Panic PanicOverflow \/ f x = y) -> rbind r f = Panic PanicOverflow \/ rbind r f = y.
Proof. intros A B P [x|s] f y Hr Hf; cbn in *; [exact (Hf x Hr)|left; rewrite Hr; reflexivity]. Qed.

Lemma safe_weaken : forall {A} (P Q : A -> Prop) r, safe P r -> (forall x, P x -> Q x) -> safe Q r.
Proof. intros A P Q [x|s] H HPQ; cbn in *; [apply HPQ; exact H|exact H]. Qed.

Lemma safe_ok : forall {A} (P : A -> Prop) x, P x -> safe P (Ok x).
Proof. intros; assumption. Qed.

Lemma safe_ok_inv : forall {A} (P : A -> Prop) r x, safe P r -> r = Ok x -> P x.
Proof. intros A P r x H ->. exact H. Qed.

Lemma safe_panic : forall {A} (P : A -> Prop) r s, safe P r -> r = Panic s -> s = PanicOverflow.
Proof. intros A P r s H ->. exact H. Qed.

Lemma cadd_safe : forall a b, safe (fun c => c = a + b) (cadd a b).
Proof. intros a b. unfold cadd. destruct (a + b <? usize_max1); cbn; reflexivity. Qed.
Lemma cmul_safe : forall a b, safe (fun c => c = a * b) (cmul a b).
Proof. intros a b. unfold cmul. destruct (a * b <? usize_max1); cbn; reflexivity. Qed.

Lemma cadd_ok : forall a b c, cadd a b = Ok c -> c = a + b.
Proof. intros a b c. exact (safe_ok_inv _ _ _ (cadd_safe a b)). Qed.

Lemma cmul_ok : forall a b c, cmul a b = Ok c -> c = a * b.
Proof. intros a b c. exact (safe_ok_inv _ _ _ (cmul_safe a b)). Qed.

Lemma rmapM_safe : forall {A B} (P : B -> Prop) (f : A -> res B) l,
  Forall (fun a => safe P (f a)) l -> safe (Forall P) (rmapM f l).
Proof.
  intros A B P f l H. induction H as [|a l Ha _ IH]; [constructor|]. cbn [rmapM].
  eapply safe_bind; [exact Ha|]. intros b Hb. eapply safe_bind; [exact IH|]. intros bs Hbs. constructor; assumption.
Qed.

Lemma rfold_safe : forall {A} (P : A -> Prop) (f : A -> A -> res A) l acc,
  (forall x y, P x -> P y -> safe P (f x y)) -> P acc -> Forall P l -> safe P (rfold f acc l).
Proof.
  intros A P f l. induction l as [|a l IH]; intros acc Hf Ha Hl; [exact Ha|].
  inversion Hl; subst. cbn [rfold]. eapply safe_bind; [apply Hf; assumption|]. intros x Hx. apply IH; assumption.
Qed.

Definition opt_ok {A} (P : A -> Prop) (o : option A) : Prop := match o with Some x => P x | None => True end.

Lemma rreduce_safe : forall {A} (P : A -> Prop) (f : A -> A -> res A) l,
  (forall x y, P x -> P y -> safe P (f x y)) -> Forall P l -> safe (opt_ok P) (rreduce f l).
Proof.
  intros A P f [|a l] Hf Hl; [exact I|]. inversion Hl; subst. unfold rreduce.
  pose proof (rfold_safe P f l a Hf H1 H2) as H. destruct (rfold f a l); cbn in *; exact H.
Qed.

Ltac arith_hyps :=
  repeat match goal with
         | H : (_ && _) = true |- _ => apply andb_prop in H; destruct H
         | H : (_ && _) = false |- _ => apply andb_false_iff in H; destruct H
         | H : (_ =? _) = true |- _ => apply N.eqb_eq in H
         | H : (_ =? _) = false |- _ => apply N.eqb_neq in H
         | H : (_ <? _) = true |- _ => apply N.ltb_lt in H
         | H : (_ <? _) = false |- _ => apply N.ltb_ge in H
         end.
Ltac break_if :=
  match goal with
  | |- context [if ?c then _ else _] => let E := fresh "E" in destruct c eqn:E
  end.
Ltac break_if_in H :=
  match type of H with
  | context [if ?c then _ else _] => let E := fresh "E" in destruct c eqn:E
  end.

Definition vr_ok (v : vrange) : Prop := match v with Bounded b => bvr_ok b | Unbounded => True end.
Definition nv_ok (v : nvar) : Prop := match v with Var v => vr_ok v | Inv _ => True end.

(* the numeric view of a range: closed lower bound and optional upper bound *)
Definition lo_of (r : nrange) : N :=
  match r with Inv n => n | Var Unbounded => 0 | Var (Bounded (BLower n)) => n | Var (Bounded (BUpper _)) => 0 | Var (Bounded (BBoth lo _)) => lo end.
Definition hi_of (r : nrange) : option N :=
  match r with Inv n => Some n | Var Unbounded => None | Var (Bounded (BLower _)) => None | Var (Bounded (BUpper n)) => Some n
             | Var (Bounded (BBoth lo ext)) => Some (lo + ext) end.

Lemma lo_le_hi : forall r, match hi_of r with Some h => lo_of r <= h | None => True end.
Proof. intros [n|[[n|n|lo ext]|]]; cbn; try exact I; lia. Qed.

Lemma bvr_view_gap : forall a, bvr_ok a -> match hi_of (Var (Bounded a)) with Some h => lo_of (Var (Bounded a)) < h | None => 0 < lo_of (Var (Bounded a)) end.
Proof. intros [n|n|lo ext] H; cbn in *; lia. Qed.

Lemma nr_lower_view : forall r, lower_usize (nr_lower r) = lo_of r.
Proof. intros [n|[[n|n|lo ext]|]]; cbn; try reflexivity. unfold nbound_of_n. destruct (N.eqb_spec n 0); subst; reflexivity. Qed.

Lemma nr_upper_view : forall r, safe (fun u => upper_usize u = hi_of r) (nr_upper r).
Proof.
  intros [n|[[n|n|lo ext]|]]; cbn; try reflexivity.
  - unfold nbound_of_n. destruct (N.eqb_spec n 0); subst; reflexivity.
  - unfold cadd. break_if; cbn; reflexivity.
Qed.

Lemma nr_upper_ok : forall r, match hi_of r with Some h => h < usize_max1 | None => True end ->
  exists u, nr_upper r = Ok u /\ upper_usize u = hi_of r.
Proof.
  intros r H. pose proof (nr_upper_view r) as V. destruct (nr_upper r) as [u|s] eqn:E; [exists u; split; [reflexivity|exact V]|].
  destruct r as [n|[[n|n|lo ext]|]]; try discriminate E. cbn [nr_upper bvr_upper hi_of] in *. unfold cadd in E.
  destruct (N.ltb_spec (lo + ext) usize_max1); [discriminate|lia].
Qed.

Lemma bvr_upper_view : forall a, safe (fun u => upper_usize u = hi_of (Var (Bounded a))) (bvr_upper a).
Proof. intros a. exact (nr_upper_view (Var (Bounded a))). Qed.

Lemma tlu_view : forall l u r, try_lower_upper l u = Some r ->
  bvr_ok r /\ lo_of (Var (Bounded r)) = l /\ (match u with Some h => l <= h | None => True end -> hi_of (Var (Bounded r)) = u).
Proof.
  intros l u r H. unfold try_lower_upper in H.
  destruct u as [h|]; repeat break_if_in H; try discriminate; inversion H; subst; arith_hyps; cbn [bvr_ok lo_of hi_of];
    repeat split; try lia; intros Hle; try reflexivity; try (f_equal; lia); lia.
Qed.

Lemma tlu_some : forall l u, match u with Some h => l < h | None => 0 < l end -> exists r, try_lower_upper l u = Some r.
Proof.
  intros l u H. unfold try_lower_upper. destruct u as [h|]; repeat break_if; arith_hyps; try lia; eexists; reflexivity.
Qed.

Lemma fco_ok : forall c o, nv_ok (from_closed_open c o).
Proof.
  intros c o. unfold from_closed_open.
  destruct (match o with Some o0 => if o0 <? c then (o0, Some c) else (c, Some o0) | None => (c, None) end) as [l u].
  assert (H : nv_ok (match try_lower_upper l u with Some r => Var (Bounded r) | None => Inv l end)).
  { destruct (try_lower_upper l u) eqn:E; [exact (proj1 (tlu_view _ _ _ E))|exact I]. }
  destruct l; [destruct u; [exact H|exact I]|exact H].
Qed.

Lemma fco_view : forall c o,
  lo_of (from_closed_open c o) = match o with Some u => N.min c u | None => c end /\
  hi_of (from_closed_open c o) = option_map (N.max c) o.
Proof.
  intros c o. unfold from_closed_open, try_lower_upper.
  destruct o as [u|]; [destruct (u <? c) eqn:E; [destruct u|destruct c]|destruct c];
    repeat break_if; arith_hyps; cbn [lo_of hi_of option_map]; split; try lia; try reflexivity; f_equal; lia.
Qed.

Lemma fco_sorted : forall l u, match u with Some h => l <= h | None => True end ->
  lo_of (from_closed_open l u) = l /\ hi_of (from_closed_open l u) = u.
Proof. intros l u H. destruct (fco_view l u) as [-> ->]. destruct u; cbn [option_map]; split; try reflexivity; try lia. f_equal. lia. Qed.

Lemma fco_var : forall c o, match o with Some u => c < u | None => True end ->
  exists v, from_closed_open c o = Var v /\ vr_ok v.
Proof.
  intros c o H. pose proof (fco_ok c o) as Hok. destruct o as [u|].
  - unfold from_closed_open in *. destruct (u <? c) eqn:E; arith_hyps; [lia|].
    destruct (tlu_some c (Some u) H) as [r Er]. rewrite Er in *. destruct c; eexists; (split; [reflexivity|exact Hok]).
  - destruct c; [eexists; split; [reflexivity|exact I]|]. eexists; split; [reflexivity|exact Hok].
Qed.

Definition add_opt (a b : option N) : option N :=
  match a, b with Some x, Some y => Some (x + y) | _, _ => None end.
Definition max_opt (a b : option N) : option N :=
  match a, b with Some x, Some y => Some (N.max x y) | _, _ => None end.
Definition mul_opt (a b : option N) : option N :=
  match a, b with Some x, Some y => Some (x * y) | _, _ => None end.

Lemma lower_min_view : forall x y, lower_usize (lower_min x y) = N.min (lower_usize x) (lower_usize y).
Proof.
  intros [| |a] [| |b]; cbn [lower_min lower_usize]; try lia; break_if; arith_hyps; cbn [lower_usize] in *; lia.
Qed.

Lemma upper_max_view : forall x y, upper_usize (upper_max x y) = max_opt (upper_usize x) (upper_usize y).
Proof.
  intros [| |a] [| |b]; cbn [upper_max upper_usize max_opt]; try reflexivity; try break_if; arith_hyps; cbn [upper_usize]; f_equal; lia.
Qed.

Lemma bvr_union_nf : forall a other, bvr_union a other = Panic PanicOverflow \/
  bvr_union a other = match from_closed_open (N.min (lo_of (Var (Bounded a))) (lo_of other)) (max_opt (hi_of (Var (Bounded a))) (hi_of other)) with
                      | Var r => Ok r | Inv _ => Panic PanicUnreachable end.
Proof.
  intros a other. unfold bvr_union.
  eapply bind_overflow_or; [apply bvr_upper_view|]. intros au Hau.
  eapply bind_overflow_or; [apply nr_upper_view|]. intros ou Hou. right.
  change (bvr_lower a) with (nr_lower (Var (Bounded a))). rewrite lower_min_view, upper_max_view, Hau, Hou, !nr_lower_view. reflexivity.
Qed.

Lemma bvr_union_safe : forall a other, bvr_ok a -> safe vr_ok (bvr_union a other).
Proof.
  intros a other Ha. destruct (bvr_union_nf a other) as [-> | ->]; [reflexivity|].
  pose proof (bvr_view_gap a Ha) as Ga. pose proof (lo_le_hi other) as Go.
  destruct (fco_var (N.min (lo_of (Var (Bounded a))) (lo_of other)) (max_opt (hi_of (Var (Bounded a))) (hi_of other))) as [v [-> Hv]]; [|exact Hv].
  destruct (hi_of (Var (Bounded a))), (hi_of other); cbn [max_opt]; try exact I; lia.
Qed.

(* the translation of [0, u] by v is [0, u + v] in the implementation: the lower bound may come out smaller than the sum *)
Lemma bvr_translation_view : forall a v,
  safe (fun r => (bvr_ok a -> bvr_ok r) /\ hi_of (Var (Bounded r)) = add_opt (hi_of (Var (Bounded a))) (Some v) /\
                 lo_of (Var (Bounded r)) <= lo_of (Var (Bounded a)) + v /\
                 (hi_of (Var (Bounded r)) = None -> lo_of (Var (Bounded r)) = lo_of (Var (Bounded a)) + v)) (bvr_translation a v).
Proof.
  intros [n|n|lo ext] v; cbn [bvr_translation]; (eapply safe_bind; [apply cadd_safe|]); intros x ->;
    cbn [safe bvr_ok lo_of hi_of add_opt]; repeat split; try lia; try discriminate; f_equal; lia.
Qed.

Lemma bvr_conj_nf : forall a b, bvr_conj a b = Panic PanicOverflow \/
  bvr_conj a b = match try_lower_upper (lo_of (Var (Bounded a)) + lo_of (Var (Bounded b))) (add_opt (hi_of (Var (Bounded a))) (hi_of (Var (Bounded b)))) with
                 | Some r => Ok r | None => Panic PanicOther end.
Proof.
  intros a b. unfold bvr_conj.
  eapply bind_overflow_or; [apply bvr_upper_view|]. intros au ->.
  eapply bind_overflow_or; [apply bvr_upper_view|]. intros bu ->.
  change (bvr_lower a) with (nr_lower (Var (Bounded a))). change (bvr_lower b) with (nr_lower (Var (Bounded b))). rewrite !nr_lower_view.
  eapply bind_overflow_or; [apply cadd_safe|]. intros lower ->.
  eapply (bind_overflow_or (fun upper => upper = add_opt (hi_of (Var (Bounded a))) (hi_of (Var (Bounded b))))).
  - destruct (hi_of (Var (Bounded a))) as [x|], (hi_of (Var (Bounded b))) as [y|]; try reflexivity. eapply safe_bind; [apply cadd_safe|]. intros z ->. reflexivity.
  - intros upper ->. right. reflexivity.
Qed.

Lemma bvr_conj_ok : forall a b c, bvr_conj a b = Ok c ->
  bvr_ok c /\ lo_of (Var (Bounded c)) = lo_of (Var (Bounded a)) + lo_of (Var (Bounded b)) /\
  hi_of (Var (Bounded c)) = add_opt (hi_of (Var (Bounded a))) (hi_of (Var (Bounded b))).
Proof.
  intros a b c H. destruct (bvr_conj_nf a b) as [E|E]; rewrite E in H; [discriminate|].
  destruct (try_lower_upper _ _) as [r|] eqn:Er; [|discriminate]. inversion H; subst r.
  destruct (tlu_view _ _ _ Er) as [Hc [Lc Uc]]. split; [exact Hc|]. split; [exact Lc|]. apply Uc.
  pose proof (lo_le_hi (Var (Bounded a))) as La. pose proof (lo_le_hi (Var (Bounded b))) as Lb.
  destruct (hi_of (Var (Bounded a))), (hi_of (Var (Bounded b))); cbn [add_opt]; try exact I; lia.
Qed.

(* C05: the conjunction of two valid bounded ranges never reaches `unreachable!()` nor the `expect`: its only failure is a
   checked addition *)
Lemma bvr_conj_view : forall a b, bvr_ok a -> bvr_ok b ->
  safe (fun r => bvr_ok r /\ lo_of (Var (Bounded r)) = lo_of (Var (Bounded a)) + lo_of (Var (Bounded b)) /\
                 hi_of (Var (Bounded r)) = add_opt (hi_of (Var (Bounded a))) (hi_of (Var (Bounded b)))) (bvr_conj a b).
Proof.
  intros a b Ha Hb. destruct (bvr_conj_nf a b) as [E|E]; [rewrite E; reflexivity|].
  pose proof (bvr_view_gap a Ha) as Ga. pose proof (bvr_view_gap b Hb) as Gb.
  destruct (tlu_some (lo_of (Var (Bounded a)) + lo_of (Var (Bounded b))) (add_opt (hi_of (Var (Bounded a))) (hi_of (Var (Bounded b))))) as [r Er].
  { destruct (hi_of (Var (Bounded a))), (hi_of (Var (Bounded b))); cbn [add_opt]; lia. }
  rewrite Er in E. rewrite E. exact (bvr_conj_ok a b r E).
Qed.

Lemma bvr_conj_total : forall a b, bvr_ok a -> bvr_ok b ->
  (exists r, bvr_conj a b = Ok r /\ bvr_ok r) \/ bvr_conj a b = Panic PanicOverflow.
Proof.
  intros a b Ha Hb. pose proof (bvr_conj_view a b Ha Hb) as H.
  destruct (bvr_conj a b) as [r|s]; [left; exists r; split; [reflexivity|exact (proj1 H)]|right; rewrite H; reflexivity].
Qed.

(* the lower bound can be smaller than the sum: the translation of "at most k" by an exact count keeps zero as its lower bound *)
Lemma nvar_conj_ok : forall l r c, nvar_conj l r = Ok c ->
  hi_of c = add_opt (hi_of l) (hi_of r) /\ lo_of c <= lo_of l + lo_of r /\ (hi_of c = None -> lo_of c = lo_of l + lo_of r).
Proof.
  intros [a|[a|]] [b|[b|]] c H; cbn [nvar_conj] in H.
  - apply rbind_ok in H. destruct H as [x [E H]]. apply cadd_ok in E. inversion H; subst. cbn. split; [reflexivity|]. split; [lia|discriminate].
  - apply rbind_ok in H. destruct H as [x [E H]]. inversion H; subst c.
    destruct (safe_ok_inv _ _ _ (bvr_translation_view b a) E) as [_ [U [L Lx]]]. rewrite U.
    change (hi_of (@Inv N bvr a)) with (Some a). change (lo_of (@Inv N bvr a)) with a.
    split; [destruct (hi_of (Var (Bounded b))); cbn [add_opt]; f_equal; lia|]. split; [lia|]. intros Hn. rewrite <- U in Hn. rewrite (Lx Hn). lia.
  - inversion H; subst c. unfold n_into_lower_bound. break_if; arith_hyps; cbn; repeat split; lia.
  - apply rbind_ok in H. destruct H as [x [E H]]. inversion H; subst c.
    destruct (safe_ok_inv _ _ _ (bvr_translation_view a b) E) as [_ Hv]. exact Hv.
  - apply rbind_ok in H. destruct H as [x [E H]]. inversion H; subst c.
    destruct (bvr_conj_ok _ _ _ E) as [_ [L U]]. split; [exact U|]. split; [lia|intros _; exact L].
  - inversion H; subst c. destruct a; cbn; repeat split; lia.
  - inversion H; subst c. unfold n_into_lower_bound. break_if; arith_hyps; cbn; repeat split; lia.
  - inversion H; subst c. destruct b; cbn; repeat split; lia.
  - inversion H; subst c. cbn. repeat split. lia.
Qed.

Lemma nvar_conj_safe : forall l r, nv_ok l -> nv_ok r -> safe nv_ok (nvar_conj l r).
Proof.
  intros [a|[a|]] [b|[b|]] Hl Hr; cbn [nvar_conj nv_ok vr_ok] in *.
  - eapply safe_bind; [apply cadd_safe|]. trivial.
  - eapply safe_bind; [apply bvr_translation_view|]. intros c Hc. exact (proj1 Hc Hr).
  - unfold n_into_lower_bound. break_if; arith_hyps; cbn; lia.
  - eapply safe_bind; [apply bvr_translation_view|]. intros c Hc. exact (proj1 Hc Hl).
  - eapply safe_bind; [apply bvr_conj_view; assumption|]. intros c Hc. exact (proj1 Hc).
  - destruct a; cbn in *; lia.
  - unfold n_into_lower_bound. break_if; arith_hyps; cbn; lia.
  - destruct b; cbn in *; lia.
  - exact I.
Qed.

Lemma nvar_eqb_eq : forall a b, nvar_eqb a b = true -> a = b.
Proof.
  intros [x|[[x|x|x e]|]] [y|[[y|y|y e']|]] H; cbn [nvar_eqb bvr_eqb] in H; try discriminate; arith_hyps; subst; reflexivity.
Qed.

Lemma nvar_disj_safe : forall l r, nv_ok l -> nv_ok r -> safe nv_ok (nvar_disj l r).
Proof.
  intros l r Hl Hr. unfold nvar_disj. destruct (nvar_eqb l r); [exact Hl|].
  destruct l as [a|[a|]], r as [b|[b|]]; cbn [nv_ok vr_ok] in *; try exact I.
  - unfold n_bound. destruct (try_lower_upper _ _) as [x|] eqn:Ex; [exact (proj1 (tlu_view _ _ _ Ex))|exact I].
  - eapply safe_bind; [apply bvr_union_safe; exact Hr|]. trivial.
  - eapply safe_bind; [apply bvr_union_safe; exact Hl|]. trivial.
  - eapply safe_bind; [apply bvr_union_safe; exact Hl|]. trivial.
Qed.

Lemma nb_product_view : forall x y,
  safe (fun z => lower_usize z = lower_usize x * lower_usize y /\ upper_usize z = mul_opt (upper_usize x) (upper_usize y)) (nb_product x y).
Proof.
  intros [| |a] [| |b]; cbn [nb_product lower_usize upper_usize safe mul_opt]; try (split; [lia|try reflexivity; f_equal; lia]).
  eapply safe_bind; [apply cmul_safe|]. intros z ->. split; reflexivity.
Qed.

Lemma by_bound_product_view : forall l r,
  safe (fun x => x = from_closed_open (lo_of l * lo_of r) (mul_opt (hi_of l) (hi_of r))) (by_bound_product l r).
Proof.
  intros l r. unfold by_bound_product.
  eapply safe_bind; [apply nr_upper_view|]. intros lu Hlu.
  eapply safe_bind; [apply nr_upper_view|]. intros ru Hru.
  eapply safe_bind; [apply nb_product_view|]. intros lower [Hlower _].
  eapply safe_bind; [apply nb_product_view|]. intros upper [_ Hupper].
  cbn. rewrite Hlower, Hupper, !nr_lower_view, Hlu, Hru. reflexivity.
Qed.

Lemma by_bound_product_var : forall l r,
  match hi_of l, hi_of r with Some hl, Some hr => lo_of l * lo_of r < hl * hr | _, _ => True end ->
  safe (fun x => exists v, x = Var v /\ vr_ok v /\ lo_of x = lo_of l * lo_of r /\ hi_of x = mul_opt (hi_of l) (hi_of r))
       (by_bound_product l r).
Proof.
  intros l r H. eapply safe_weaken; [apply by_bound_product_view|]. intros x ->.
  destruct (fco_var (lo_of l * lo_of r) (mul_opt (hi_of l) (hi_of r))) as [v [Ev Hv]].
  { destruct (hi_of l), (hi_of r); cbn [mul_opt]; trivial. }
  exists v. split; [exact Ev|]. split; [exact Hv|]. apply fco_sorted. destruct (hi_of l), (hi_of r); cbn [mul_opt]; trivial; lia.
Qed.

Lemma bvr_product_safe : forall a b, bvr_ok a -> bvr_ok b -> safe vr_ok (bvr_product a b).
Proof.
  intros a b Ha Hb. unfold bvr_product. eapply safe_bind; [apply by_bound_product_var|].
  - pose proof (bvr_view_gap a Ha) as Ga. pose proof (bvr_view_gap b Hb) as Gb.
    destruct (hi_of (Var (Bounded a))), (hi_of (Var (Bounded b))); trivial. nia.
  - intros x [v [-> H]]. exact (proj1 H).
Qed.

Lemma bvr_product_nz_safe : forall a n, bvr_ok a -> n <> 0 -> safe bvr_ok (bvr_product_nz a n).
Proof.
  intros a n Ha Hn. unfold bvr_product_nz. pose proof (bvr_view_gap a Ha) as Ga.
  set (la := lo_of (Var (Bounded a))) in *. set (ha := hi_of (Var (Bounded a))) in *.
  eapply safe_bind; [apply by_bound_product_var|]; fold la ha; change (lo_of (Inv n)) with n; change (hi_of (@Inv N bvr n)) with (Some n).
  - destruct ha; [nia|exact I].
  - intros x [v [-> [Hv [Lv Uv]]]]. destruct v as [c|]; [exact Hv|].
    exfalso. cbn [lo_of hi_of] in *. destruct ha; [discriminate|nia].
Qed.

Lemma nvar_product_safe : forall l r, nv_ok l -> nv_ok r -> safe nv_ok (nvar_product l r).
Proof.
  intros [a|[a|]] [n|[b|]] Hl Hr; cbn [nvar_product nv_ok vr_ok] in *.
  - eapply safe_bind; [apply cmul_safe|]. trivial.
  - destruct (N.eqb_spec a 0) as [->|Ha]; [exact I|]. eapply safe_bind; [apply bvr_product_nz_safe; assumption|]. trivial.
  - destruct (N.eqb_spec a 0) as [->|Ha]; exact I.
  - destruct (N.eqb_spec n 0) as [->|Hn]; [exact I|]. eapply safe_bind; [apply bvr_product_nz_safe; assumption|]. trivial.
  - eapply safe_bind; [apply bvr_product_safe; assumption|]. trivial.
  - exact I.
  - destruct (N.eqb_spec n 0) as [->|Hn]; exact I.
  - exact I.
  - exact I.
Qed.

Lemma by_bound_view : forall l r c, by_bound_product l r = Ok c -> lo_of c = lo_of l * lo_of r /\ hi_of c = mul_opt (hi_of l) (hi_of r).
Proof.
  intros l r c H. rewrite (safe_ok_inv _ _ _ (by_bound_product_view l r) H). apply fco_sorted.
  pose proof (lo_le_hi l) as Ll. pose proof (lo_le_hi r) as Lr. destruct (hi_of l), (hi_of r); cbn [mul_opt]; try exact I. nia.
Qed.

Lemma bvr_product_nz_ok : forall b n c, bvr_product_nz b n = Ok c -> by_bound_product (Var (Bounded b)) (Inv n) = Ok (Var (Bounded c)).
Proof. intros b n c H. unfold bvr_product_nz in H. destruct (by_bound_product _ _) as [[m|[b1|]]|]; try discriminate. inversion H. reflexivity. Qed.

Lemma bvr_product_ok : forall a b v, bvr_product a b = Ok v -> by_bound_product (Var (Bounded a)) (Var (Bounded b)) = Ok (Var v).
Proof. intros a b v H. unfold bvr_product in H. destruct (by_bound_product _ _) as [[m|v1]|]; try discriminate. inversion H. reflexivity. Qed.

(* the second alternative: a product with the invariant zero is zero also when the other factor has no upper bound *)
Lemma nvar_product_ok : forall v r c, nvar_product v r = Ok c ->
  lo_of c = lo_of v * lo_of r /\ (hi_of c = mul_opt (hi_of v) (hi_of r) \/ (v = Inv 0 \/ r = Inv 0) /\ c = Inv 0).
Proof.
  intros [a|[a|]] [n|[b|]] c H; cbn [nvar_product] in H.
  - apply rbind_ok in H. destruct H as [z [E H]]. apply cmul_ok in E. inversion H; subst. cbn. auto.
  - (* the product is taken with the operands exchanged *)
    destruct (N.eqb_spec a 0) as [->|Ha]; [inversion H; subst; cbn [lo_of]; split; [lia|auto]|].
    apply rbind_ok in H. destruct H as [c0 [E H]]. inversion H; subst c. destruct (by_bound_view _ _ _ (bvr_product_nz_ok _ _ _ E)) as [-> ->].
    split; [apply N.mul_comm|left]. change (hi_of (@Inv N bvr a)) with (Some a). destruct (hi_of (Var (Bounded b))); cbn [mul_opt]; f_equal; lia.
  - destruct (N.eqb_spec a 0) as [->|Ha]; inversion H; subst; cbn [lo_of hi_of mul_opt]; split; auto; lia.
  - destruct (N.eqb_spec n 0) as [->|Hn]; [inversion H; subst; cbn [lo_of]; split; [lia|auto]|].
    apply rbind_ok in H. destruct H as [c0 [E H]]. inversion H; subst c. destruct (by_bound_view _ _ _ (bvr_product_nz_ok _ _ _ E)) as [-> ->]. auto.
  - apply rbind_ok in H. destruct H as [v0 [E H]]. inversion H; subst c. destruct (by_bound_view _ _ _ (bvr_product_ok _ _ _ E)) as [-> ->]. auto.
  - inversion H; subst. cbn [lo_of]. split; [lia|left]. destruct (hi_of (Var (Bounded a))); reflexivity.
  - destruct (N.eqb_spec n 0) as [->|Hn]; inversion H; subst; cbn [lo_of hi_of mul_opt]; split; auto; lia.
  - inversion H; subst. cbn. auto.
  - inversion H; subst. cbn. auto.
Qed.

Definition st_ok (s : sterm) : Prop := nv_ok (snd s).
Definition bt_ok (t : bterm) : Prop := match t with BConj s => st_ok s | BDisj ss => Forall st_ok ss end.

Lemma sterm_finalize_safe : forall s, st_ok s -> safe nv_ok (sterm_finalize s).
Proof.
  intros [tm v] H. unfold sterm_finalize, st_ok in *. cbn [fst snd] in *. destruct tm; try exact H.
  - apply nvar_conj_safe; [exact H|exact I].
  - destruct v; [exact I|exact H].
Qed.

Lemma sterm_conj_safe : forall l r, st_ok l -> st_ok r -> safe st_ok (sterm_conj l r).
Proof.
  intros l r Hl Hr. unfold sterm_conj. destruct (term_conj (fst l) (fst r)).
  - eapply safe_bind; [apply sterm_finalize_safe; exact Hl|]. intros lv Hlv.
    eapply safe_bind; [apply nvar_conj_safe; [exact Hlv|exact Hr]|trivial].
  - eapply safe_bind; [apply sterm_finalize_safe; exact Hr|]. intros rv Hrv.
    eapply safe_bind; [apply nvar_conj_safe; [exact Hl|exact Hrv]|trivial].
  - eapply safe_bind; [apply nvar_conj_safe; [exact Hl|exact Hr]|trivial].
Qed.

Lemma set_insert_ok : forall x s, st_ok x -> Forall st_ok s -> Forall st_ok (set_insert x s).
Proof.
  intros x s Hx Hs. induction Hs as [|y s Hy Hs IH]; cbn [set_insert]; [constructor; [exact Hx|constructor]|].
  destruct (sterm_eqb x y); constructor; assumption.
Qed.

Lemma fold_insert_ok : forall l s, Forall st_ok l -> Forall st_ok s -> Forall st_ok (fold_left (fun s x => set_insert x s) l s).
Proof.
  induction l as [|x l IH]; intros s Hl Hs; [exact Hs|]. inversion Hl; subst. cbn [fold_left]. apply IH; [assumption|].
  apply set_insert_ok; assumption.
Qed.

Lemma set_of_list_ok : forall l, Forall st_ok l -> Forall st_ok (set_of_list l).
Proof. intros l H. unfold set_of_list. apply fold_insert_ok; [exact H|constructor]. Qed.

Lemma bterm_conj_safe : forall l r, bt_ok l -> bt_ok r -> safe bt_ok (bterm_conj l r).
Proof.
  intros [a|as_] [b|bs] Hl Hr; cbn [bterm_conj bt_ok] in *.
  - eapply safe_bind; [apply sterm_conj_safe; assumption|trivial].
  - eapply safe_bind; [apply (rmapM_safe st_ok)|exact set_of_list_ok].
    eapply Forall_impl; [|exact Hr]. intros x Hx. apply sterm_conj_safe; assumption.
  - eapply safe_bind; [apply (rmapM_safe st_ok)|exact set_of_list_ok].
    eapply Forall_impl; [|exact Hl]. intros x Hx. apply sterm_conj_safe; assumption.
  - eapply safe_bind; [apply (rmapM_safe st_ok)|exact set_of_list_ok].
    apply Forall_forall. intros [x y] Hin. apply in_prod_iff in Hin. destruct Hin as [Hx Hy].
    rewrite Forall_forall in Hl, Hr. apply sterm_conj_safe; [apply Hl; exact Hx|apply Hr; exact Hy].
Qed.

Lemma bterm_disj_ok : forall l r, bt_ok l -> bt_ok r -> bt_ok (bterm_disj l r).
Proof.
  intros [a|as_] [b|bs] Hl Hr; cbn [bterm_disj bt_ok] in *.
  - apply set_of_list_ok. constructor; [exact Hl|constructor; [exact Hr|constructor]].
  - apply set_insert_ok; assumption.
  - apply set_insert_ok; assumption.
  - apply fold_insert_ok; assumption.
Qed.

Lemma sterm_product_safe : forall s r, st_ok s -> nv_ok r -> safe st_ok (sterm_product s r).
Proof. intros s r Hs Hr. unfold sterm_product. eapply safe_bind; [apply nvar_product_safe; [exact Hs|exact Hr]|trivial]. Qed.

Lemma bterm_product_safe : forall l r, bt_ok l -> nv_ok r -> safe bt_ok (bterm_product l r).
Proof.
  intros [a|as_] r Hl Hr; cbn [bterm_product bt_ok] in *.
  - eapply safe_bind; [apply sterm_product_safe; assumption|trivial].
  - eapply safe_bind; [apply (rmapM_safe st_ok)|exact set_of_list_ok].
    eapply Forall_impl; [|exact Hl]. intros x Hx. apply sterm_product_safe; assumption.
Qed.

Lemma bterm_finalize_safe : forall t, bt_ok t -> safe nv_ok (bterm_finalize t).
Proof.
  intros [a|as_] H; cbn [bterm_finalize bt_ok] in *; [apply sterm_finalize_safe; exact H|].
  eapply safe_bind; [apply (rmapM_safe nv_ok)|].
  - eapply Forall_impl; [|exact H]. intros x Hx. apply sterm_finalize_safe. exact Hx.
  - intros vs Hvs. eapply safe_bind; [apply (rreduce_safe nv_ok); [apply nvar_disj_safe|exact Hvs]|].
    intros [v|] Hv; [exact Hv|exact I].
Qed.

Lemma opt_list_ok : forall {A} (P : A -> Prop) l, Forall (opt_ok P) l -> Forall P (flat_map opt_list l).
Proof.
  intros A P l H. induction H as [|[x|] l Hx _ IH]; cbn [flat_map opt_list app]; [constructor|constructor; assumption|exact IH].
Qed.

Lemma fold_children_safe : forall {A} (P : A -> Prop) (fold : tok -> res (option A)) op ts,
  (forall x y, P x -> P y -> safe P (op x y)) -> Forall (fun t => safe (opt_ok P) (fold t)) ts ->
  safe (opt_ok P) (do terms <- rmapM fold ts; rreduce op (flat_map opt_list terms)).
Proof.
  intros A P fold op ts Hop H. eapply safe_bind; [apply (rmapM_safe (opt_ok P)); exact H|]. intros terms Ht.
  apply rreduce_safe; [exact Hop|apply opt_list_ok; exact Ht].
Qed.

Lemma depth_leaf_ok : forall l, bt_ok (depth_leaf l).
Proof. intros []; exact I. Qed.

Lemma depth_fold_safe : forall t, safe (opt_ok bt_ok) (depth_fold t).
Proof.
  induction t as [sp l|sp bs IH|sp ts IH|sp b lo hi IH] using tok_ind'; cbn [depth_fold].
  - apply depth_leaf_ok.
  - apply fold_children_safe; [exact bterm_disj_ok|exact IH].
  - apply fold_children_safe; [exact bterm_conj_safe|exact IH].
  - eapply safe_bind; [exact IH|]. intros term Ht.
    eapply safe_bind; [apply (rreduce_safe bt_ok); [apply bterm_conj_safe|]|].
    + destruct term; cbn [opt_list]; [constructor; [exact Ht|constructor]|constructor].
    + intros [x|] Hx; [|exact I]. eapply safe_bind; [apply bterm_product_safe; [exact Hx|apply fco_ok]|trivial].
Qed.

Theorem depth_variance_safe : forall t, safe nv_ok (depth_variance t).
Proof.
  intros t. unfold depth_variance. eapply safe_bind; [apply depth_fold_safe|]. intros [x|] Hx; apply bterm_finalize_safe; [exact Hx|exact I].
Qed.

Lemma size_leaf_ok : forall l, nv_ok (size_leaf l).
Proof. intros [ci s| |neg a| |lz|root]; cbn; try exact I. destruct a; exact I. Qed.

Lemma size_fold_safe : forall t, safe (opt_ok nv_ok) (size_fold t).
Proof.
  induction t as [sp l|sp bs IH|sp ts IH|sp b lo hi IH] using tok_ind'; cbn [size_fold].
  - apply size_leaf_ok.
  - apply fold_children_safe; [exact nvar_disj_safe|exact IH].
  - apply fold_children_safe; [exact nvar_conj_safe|exact IH].
  - eapply safe_bind; [exact IH|]. intros [x|] Hx; [|exact I].
    eapply safe_bind; [apply nvar_product_safe; [exact Hx|apply fco_ok]|trivial].
Qed.

Theorem size_variance_safe : forall t, safe nv_ok (size_variance t).
Proof.
  intros t. unfold size_variance. eapply safe_bind; [apply size_fold_safe|]. intros [x|] Hx; [exact Hx|exact I].
Qed.

Section Text.
Variable has_casing : char -> bool.

Lemma tvar_product_safe : forall l r, safe (fun _ => True) (tvar_product l r).
Proof.
  intros [a|[[]|]] [n|[b|]]; cbn [tvar_product]; try exact I; try (destruct (n =? 0); exact I).
  destruct (n =? 0); [exact I|]. unfold text_repeated, cmul. destruct (_ <? _); cbn; [exact I|reflexivity].
Qed.

Lemma text_fold_safe : forall t, safe (fun _ => True) (text_fold has_casing t).
Proof.
  induction t as [sp l|sp bs IH|sp ts IH|sp b lo hi IH] using tok_ind'; cbn [text_fold].
  - exact I.
  - eapply safe_bind; [apply (rmapM_safe (fun _ => True)); exact IH|]. intros; exact I.
  - eapply safe_bind; [apply (rmapM_safe (fun _ => True)); exact IH|]. intros; exact I.
  - eapply safe_bind; [exact IH|]. intros [x|] _; [|exact I].
    eapply safe_bind; [apply tvar_product_safe|]. intros; exact I.
Qed.

Theorem text_variance_safe : forall t, safe (fun _ => True) (text_variance has_casing t).
Proof. intros t. unfold text_variance. eapply safe_bind; [apply text_fold_safe|]. intros; exact I. Qed.
End Text.

Lemma take_exh_incl : forall {A} conj (l : list (tok * A)) x, In x (take_exh conj l) -> In x l.
Proof.
  intros A conj l. induction l as [|[t a] l IH]; intros x H; [contradiction|]. cbn [take_exh] in H.
  destruct t; try (destruct (exh_takes _); [destruct H as [<-|H]; [left; reflexivity|right; apply IH; exact H]|contradiction]);
    (destruct (conj && bounded_branch _); [destruct H as [<-|[]]; left; reflexivity|
     destruct H as [<-|H]; [left; reflexivity|right; apply IH; exact H]]).
Qed.

Lemma combine_map : forall {A B} (f : A -> B) l, combine l (map f l) = map (fun a => (a, f a)) l.
Proof. intros A B f l. induction l as [|a l IH]; [reflexivity|]. cbn [map combine]. rewrite IH. reflexivity. Qed.

(* how the fold ends a node of n children of which k gave a term: with what those terms reduce to, or with the zero term *)
Definition exh_finish (n k : nat) (sum : option bterm) : res (option bterm) :=
  if Nat.eqb n k then Ok sum else if exh_maybe sum then Ok sum else Ok (Some bterm_zero).

(* the fold at a node with children ts: the terms of the children the sequencer takes, reduced by op *)
Definition exh_node (conj : bool) (op : bterm -> bterm -> res bterm) (ts : list tok) : res (option bterm) :=
  do terms0 <- rmapM snd (take_exh conj (rev (combine ts (map exh_fold ts))));
  do sum <- rreduce op (flat_map opt_list terms0);
  exh_finish (length ts) (length (flat_map opt_list terms0)) sum.

Lemma exh_fold_alt : forall sp bs, exh_fold (TAlt sp bs) = exh_node false rdisj bs.
Proof. reflexivity. Qed.

Lemma exh_fold_cat : forall sp ts, exh_fold (TCat sp ts) = exh_node true bterm_conj ts.
Proof. reflexivity. Qed.

Lemma exh_fold_rep : forall sp b lo hi, exh_fold (TRep sp b lo hi) =
  do folded <- exh_node true bterm_conj [b];
  match folded with
  | Some x => if bounded_branch b then Ok (Some x)
              else if exh_rep_finalizes x then do y <- bterm_product x (rep_range lo hi); Ok (Some y) else Ok (Some x)
  | None => Ok None
  end.
Proof.
  intros sp b lo hi. cbn [exh_fold]. unfold exh_node. cbn [map combine rev app length].
  destruct (rmapM snd _) as [terms0|]; [|reflexivity]. cbn [rbind]. destruct (rreduce _ _) as [sum|]; [|reflexivity]. cbn [rbind].
  unfold exh_finish. destruct (Nat.eqb _ _); [|destruct (exh_maybe sum)]; reflexivity.
Qed.

Section ExhFold.
Variable P : bterm -> Prop.
Variable C : tok -> Prop.

Lemma exh_node_safe : forall conj op (ts : list tok), P bterm_zero -> (forall x y, P x -> P y -> safe P (op x y)) ->
  Forall (fun t => safe (opt_ok P) (exh_fold t)) ts -> safe (opt_ok P) (exh_node conj op ts).
Proof.
  intros conj op ts P_zero Hop H. unfold exh_node. eapply safe_bind.
  - apply (rmapM_safe (opt_ok P)), Forall_forall. intros [t r] Hin. apply take_exh_incl, in_rev in Hin.
    rewrite combine_map in Hin. apply in_map_iff in Hin. destruct Hin as [t' [E Ht]]. inversion E; subst.
    rewrite Forall_forall in H. exact (H t Ht).
  - intros terms0 Ht. eapply safe_bind; [apply (rreduce_safe P); [exact Hop|apply opt_list_ok; exact Ht]|]. intros sum Hs.
    unfold exh_finish. destruct (Nat.eqb _ _); [exact Hs|]. destruct (exh_maybe sum); [exact Hs|exact P_zero].
Qed.

Hypothesis C_alt : forall sp bs, C (TAlt sp bs) -> Forall C bs.
Hypothesis C_cat : forall sp ts, C (TCat sp ts) -> Forall C ts.
Hypothesis C_rep : forall sp b lo hi, C (TRep sp b lo hi) -> C b.
Hypothesis P_leaf : forall sp l, C (TLeaf sp l) -> P (depth_leaf l).
Hypothesis P_zero : P bterm_zero.
Hypothesis P_disj : forall x y, P x -> P y -> P (bterm_disj x y).
Hypothesis P_conj : forall x y, P x -> P y -> safe P (bterm_conj x y).
Hypothesis P_product : forall sp b lo hi x, C (TRep sp b lo hi) -> bounded_branch b = false -> exh_rep_finalizes x = true ->
  P x -> safe P (bterm_product x (rep_range lo hi)).

Theorem exh_fold_pres : forall t, C t -> safe (opt_ok P) (exh_fold t).
Proof.
  induction t as [sp l|sp bs IH|sp ts IH|sp b lo hi IH] using tok_ind'; intros Hc.
  - exact (P_leaf sp l Hc).
  - rewrite exh_fold_alt. apply exh_node_safe; [exact P_zero|exact P_disj|exact (Forall_mp _ _ _ IH (C_alt _ _ Hc))].
  - rewrite exh_fold_cat. apply exh_node_safe; [exact P_zero|exact P_conj|exact (Forall_mp _ _ _ IH (C_cat _ _ Hc))].
  - rewrite exh_fold_rep. eapply safe_bind.
    + apply (exh_node_safe true bterm_conj [b] P_zero P_conj). constructor; [exact (IH (C_rep _ _ _ _ Hc))|constructor].
    + intros [x|] Hx; [|exact I]. destruct (bounded_branch b) eqn:Eb; [exact Hx|]. destruct (exh_rep_finalizes x) eqn:Ef; [|exact Hx].
      eapply safe_bind; [exact (P_product sp b lo hi x Hc Eb Ef Hx)|trivial].
Qed.
End ExhFold.

Lemma exh_fold_safe : forall t, safe (opt_ok bt_ok) (exh_fold t).
Proof.
  intros t. apply (exh_fold_pres bt_ok (fun _ => True)); trivial.
  - intros sp bs _. apply Forall_forall. trivial.
  - intros sp ts _. apply Forall_forall. trivial.
  - intros sp l _. apply depth_leaf_ok.
  - exact I.
  - exact bterm_disj_ok.
  - exact bterm_conj_safe.
  - intros sp b lo hi x _ _ _ Hx. apply bterm_product_safe; [exact Hx|apply fco_ok].
Qed.

Lemma exh_fold_ok : forall t b, exh_fold t = Ok (Some b) -> bt_ok b.
Proof. intros t b. exact (safe_ok_inv _ _ _ (exh_fold_safe t)). Qed.

Theorem is_exhaustive_safe : forall t, safe (fun _ => True) (is_exhaustive t).
Proof. intros t. unfold is_exhaustive. eapply safe_bind; [apply exh_fold_safe|]. intros; exact I. Qed.

Lemma rule_size_list_safe : forall l, safe (fun _ => True) (rule_size_list l).
Proof.
  induction l as [|x l IH]; [exact I|]. cbn [rule_size_list].
  eapply safe_bind; [apply size_variance_safe|]. intros [n|v] _; [|exact IH]. destruct (MAX_INVARIANT_SIZE <=? n); [exact I|exact IH].
Qed.

Theorem check_safe : forall t, safe (fun _ => True) (check t).
Proof.
  intros t. unfold check. destruct (rule_boundary t); [exact I|]. destruct (rule_bounds t); [exact I|].
  destruct (rule_branch t); [exact I|]. apply rule_size_list_safe.
Qed.

(* C05: the only panics a build can end in are a checked-arithmetic overflow (in the size rule) and the compile panic *)
Theorem build_panic_sites : forall e s, build e = BuildPanic s -> s = PanicOverflow \/ s = PanicCompile.
Proof.
  intros e s H. unfold build in H. destruct (parse e) as [t| |]; try discriminate.
  pose proof (check_safe t) as Hc. destruct (check t) as [[[k sp]|]|s']; try discriminate.
  - destruct (compile_ok (encode t)); [discriminate|]. inversion H. right. reflexivity.
  - inversion H; subst. left. exact Hc.
Qed.

Theorem queries_panic_only_by_overflow : forall has_casing t s,
  depth_variance t = Panic s \/ size_variance t = Panic s \/ text_variance has_casing t = Panic s \/
  is_exhaustive t = Panic s \/ check t = Panic s -> s = PanicOverflow.
Proof.
  intros hc t s [H|[H|[H|[H|H]]]].
  - eapply safe_panic; [apply depth_variance_safe|exact H].
  - eapply safe_panic; [apply size_variance_safe|exact H].
  - eapply safe_panic; [apply text_variance_safe|exact H].
  - eapply safe_panic; [apply is_exhaustive_safe|exact H].
  - eapply safe_panic; [apply check_safe|exact H].
Qed.
