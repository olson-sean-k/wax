(* ExhaustRepFacts.v -- C09 with repetitions that are written out at least once and are either bounded above or have a body that holds
   a bounded token (`<a/:1,>`, `<*.{rs,md}:1,3>`: the class `frp`).  What the coverage of ExhaustAltFacts needs of the algebra without the
   restriction on the shape of the variances: an upper bound never disappears under conjunction, finalisation, or a product by a range
   that is bounded above.  And the step for such a repetition (`covered_rep_required`): the last copy of the body is covered.  The
   soundness theorem of the class is stated in ExhaustOptFacts, whose class contains this one. *)
From WaxModel Require Import Base Token Spec Variance Fold.
From WaxProofs Require Import SpecFacts DepthTreeFacts DepthAltFacts ParseShape AlgebraClosure AdjacencyFacts ExhaustAltFacts.
Local Open Scope nat_scope.

Lemma conj_keeps_upper : forall a b c, nv_ok a -> nv_ok b -> nvar_conj a b = Ok c -> nv_ok c /\ (vform c -> vform a \/ vform b).
Proof.
  intros a b c Ha Hb H. split; [exact (safe_ok_inv _ _ _ (nvar_conj_safe a b Ha Hb) H)|].
  destruct (nvar_conj_ok a b c H) as [Hh _]. rewrite !vform_hi_of. intros Hv. rewrite Hv in Hh.
  destruct (hi_of a); [|left; reflexivity]. destruct (hi_of b); [discriminate|right; reflexivity].
Qed.

Lemma sterm_conj_keeps_upper : forall a b c, st_ok a -> st_ok b -> sterm_conj a b = Ok c -> st_ok c /\ (vform (snd c) -> vform (snd a) \/ vform (snd b)).
Proof. exact (sterm_conj_upper nv_ok (fun _ => I) conj_keeps_upper). Qed.

Lemma product_keeps_upper : forall v r v' h, hi_of r = Some h -> nvar_product v r = Ok v' -> vform v' -> vform v.
Proof.
  intros v r v' h Hh H Hv'. destruct (nvar_product_ok v r v' H) as [_ [Hp|[_ ->]]]; [|destruct Hv'].
  apply vform_hi_of. apply vform_hi_of in Hv'. rewrite Hv', Hh in Hp. destruct (hi_of v); [discriminate|reflexivity].
Qed.

Lemma rep_range_hi : forall lo h, hi_of (rep_range lo (Some h)) = Some (N.max lo h).
Proof. intros lo h. exact (proj2 (fco_view lo (Some h))). Qed.

Lemma bterm_product_members : forall x r y, bterm_product x r = Ok y ->
  forall m, In m (members x) -> exists m', In m' (members y) /\ sterm_product m r = Ok m'.
Proof.
  intros [a|ss] r y H m Hm; cbn [bterm_product members] in *.
  - destruct Hm as [<-|[]]. destruct (sterm_product a r) as [c|] eqn:E; [|discriminate]. inversion H; subst. exists c. split; [left; reflexivity|reflexivity].
  - destruct (rmapM (fun a => sterm_product a r) ss) as [cs|] eqn:E; [|discriminate]. inversion H; subst. cbn [members].
    destruct (rmapM_ok_in _ _ _ m E Hm) as [c [Ec Hc]]. exists c. split; [apply set_of_list_in; exact Hc|exact Ec].
Qed.

Lemma bterm_product_members_inv : forall x r y, bterm_product x r = Ok y -> forall m', In m' (members y) ->
  exists m, In m (members x) /\ sterm_product m r = Ok m'.
Proof.
  intros [a|ss] r y H m' Hm'; cbn [bterm_product members] in *.
  - destruct (sterm_product a r) as [c|] eqn:E; [|discriminate]. inversion H; subst. destruct Hm' as [<-|[]]. exists a. split; [left; reflexivity|exact E].
  - destruct (rmapM (fun a => sterm_product a r) ss) as [cs|] eqn:E; [|discriminate]. inversion H; subst. cbn [members] in Hm'. apply (proj1 (set_of_list_in _ _)) in Hm'.
    exact (rmapM_all_ok _ _ _ E m' Hm').
Qed.

Lemma sterm_product_keeps_upper : forall m r m' h, hi_of r = Some h -> sterm_product m r = Ok m' ->
  vform (snd m') -> vform (snd m).
Proof.
  intros m r m' h Hh Ep Hv. unfold sterm_product in Ep. destruct (nvar_product (snd m) r) as [v|] eqn:Ev; [|discriminate].
  cbn [rbind] in Ep. inversion Ep; subst. exact (product_keeps_upper _ _ _ _ Hh Ev Hv).
Qed.

(* the class: repetitions written out at least once, bounded above or with a bounded body *)
Fixpoint frp (t : tok) : bool :=
  match t with
  | TLeaf _ _ => true
  | TAlt _ bs => forallb (fun b => is_branch b && frp b) bs
  | TCat _ ts => forallb frp ts
  | TRep _ b lo hi => is_branch b && (1 <=? lo)%N && (match hi with Some _ => true | None => bounded_branch b end) && frp b
  end.

Lemma frp_alt : forall sp bs, frp (TAlt sp bs) = true -> forall b, In b bs -> is_branch b = true /\ frp b = true.
Proof. intros sp bs H b Hb. cbn [frp] in H. rewrite forallb_forall in H. apply andb_prop. exact (H b Hb). Qed.

Lemma frp_cat : forall sp ts, frp (TCat sp ts) = true -> forall m, In m ts -> frp m = true.
Proof. intros sp ts H m Hm. cbn [frp] in H. rewrite forallb_forall in H. exact (H m Hm). Qed.

Lemma frp_rep : forall sp b lo hi, frp (TRep sp b lo hi) = true ->
  is_branch b = true /\ (1 <= lo)%N /\ (hi = None -> bounded_branch b = true) /\ frp b = true.
Proof.
  intros sp b lo hi H. cbn [frp] in H. apply andb_prop in H. destruct H as [H Hb]. apply andb_prop in H. destruct H as [H Hhi].
  apply andb_prop in H. destruct H as [Hbr Hlo]. apply N.leb_le in Hlo. repeat split; try assumption. intros ->. exact Hhi.
Qed.

Lemma required_not_free : forall b lo hi, (1 <= lo)%N -> free_rep b lo hi = false.
Proof. intros b lo hi Hlo. unfold free_rep. destruct (N.eqb_spec lo 0); [lia|reflexivity]. Qed.

Definition Cov (t : tok) : Prop :=
  (forall r, exh_fold t = Ok r -> r <> None) /\
  forall b, exh_fold t = Ok (Some b) -> forall x, Expands t x -> exists m, In m (members b) /\ (vform (snd m) -> has_ft x).

Lemma bt_ok_members : forall b, bt_ok b -> forall m, In m (members b) -> st_ok m.
Proof. intros [a|ss] H m Hm; cbn [bt_ok members] in *; [destruct Hm as [<-|[]]; exact H|rewrite Forall_forall in H; exact (H m Hm)]. Qed.

(* the coverage of ExhaustAltFacts with the well-formed variances as the members' invariant: the fold's terms have it anyway *)
Lemma st_ok_keeps_upper : keeps_upper st_ok.
Proof. exact (variances_keep_upper nv_ok (fun _ => I) I conj_keeps_upper). Qed.

Lemma Cov_covered : forall t, Cov t <-> covered st_ok t.
Proof.
  intros t. rewrite covered_iff. split; intros [H1 H2]; (split; [exact H1|]); intros b Hb.
  - split; [apply Forall_forall; exact (bt_ok_members b (exh_fold_ok t b Hb))|exact (H2 b Hb)].
  - exact (proj2 (H2 b Hb)).
Qed.

Lemma covers_product : forall xb r h y X, hi_of r = Some h -> bterm_product xb r = Ok y -> covers xb X -> covers y X.
Proof.
  intros xb r h y X Hh Ep Hcov x Hx. destruct (Hcov x Hx) as [m [Hm Hft]]. destruct (bterm_product_members _ _ _ Ep m Hm) as [m' [Hm' Epm]].
  exists m'. split; [exact Hm'|]. intros Hv. exact (Hft (sterm_product_keeps_upper m r m' h Hh Epm Hv)).
Qed.

Lemma rep_last_copy : forall sp b lo hi x, (1 <= lo)%N -> Expands (TRep sp b lo hi) x -> exists pre xl, x = pre ++ xl /\ Expands b xl.
Proof.
  intros sp b lo hi x Hlo Hx. inversion Hx as [| | |sp0 b0 lo0 hi0 xs [Hl _] HF]; subst.
  destruct (exists_last (l := xs)) as [ini [xl ->]]. { intros ->. cbn in Hl. lia. }
  apply Forall_app in HF. destruct HF as [_ HF]. inversion HF as [|? ? Hxl _]; subst.
  exists (concat ini), xl. split; [rewrite concat_app; cbn [concat]; rewrite app_nil_r; reflexivity|exact Hxl].
Qed.

(* repetition, written out at least once: the last copy of the body is covered; the product by the range, taken only when the body is
   unbounded and then by a range that is bounded above, loses no upper bound *)
Lemma covered_rep_required : forall sp b lo hi, is_branch b = true -> (1 <= lo)%N -> (hi = None -> bounded_branch b = true) ->
  covered st_ok b -> covered st_ok (TRep sp b lo hi).
Proof.
  intros sp b lo hi Hbr Hlo Hhi Hb r Hr. destruct (exh_fold_rep_inv st_ok sp b lo hi r Hbr Hb Hr) as [xb [Eb Hcase]].
  destruct (covered_term _ b xb Hb Eb) as [HPb Hcov].
  assert (Hlast : covers xb (Expands (TRep sp b lo hi))).
  { intros x Hx. destruct (rep_last_copy sp b lo hi x Hlo Hx) as [pre [xl [-> Hxl]]]. destruct (Hcov xl Hxl) as [m [Hm Hft]].
    exists m. split; [exact Hm|]. intros Hv. apply has_ft_prepend. exact (Hft Hv). }
  destruct Hcase as [->|[Ebb [y [Ep ->]]]]; [exists xb; auto|].
  destruct hi as [h|]; [|rewrite (Hhi eq_refl) in Ebb; discriminate].
  exists y. split; [reflexivity|]. split; [apply Forall_forall; exact (bt_ok_members y (exh_fold_ok _ y Hr))|].
  exact (covers_product xb _ _ y _ (rep_range_hi lo h) Ep Hlast).
Qed.

(* the class on built globs: the shape conditions are the parser's *)
Fixpoint required_reps (t : tok) : bool :=
  match t with
  | TLeaf _ _ => true
  | TAlt _ bs => forallb required_reps bs
  | TCat _ ts => forallb required_reps ts
  | TRep _ b lo hi => (1 <=? lo)%N && (match hi with Some _ => true | None => bounded_branch b end) && required_reps b
  end.

Lemma rep_free_required_reps : forall t, rep_free t = true -> required_reps t = true.
Proof. apply rep_free_class; reflexivity. Qed.

Lemma sh_frp : forall t, sh t -> required_reps t = true -> frp t = true.
Proof.
  induction t as [sp l|sp bs IH|sp ts IH|sp b lo hi IH] using tok_ind'; intros Hs Hr; try reflexivity; cbn [sh frp required_reps] in *.
  - exact (all_sh_shp true is_branch required_reps frp bs cat_is_branch IH Hs Hr).
  - exact (all_sh_shp false (fun _ => true) required_reps frp ts (fun _ _ => eq_refl) IH Hs Hr).
  - destruct Hs as [Hc Hsb]. apply andb_prop in Hr. destruct Hr as [Hr Hrb]. apply andb_prop in Hr. destruct Hr as [Hr1 Hr2]. rewrite Hr1, Hr2, (IH Hsb Hrb). destruct b; try discriminate; reflexivity.
Qed.
