(* RootRep.v -- C12, second sentence: a glob never reports "sometimes rooted".  `has_root` only looks at the starting chain of the
   tree (the first token, and through alternations the first token of every branch).  An alternation on that chain has no branch that
   begins with a root - the rule checker rejects it (RootedSubGlob) through the context that nested branches inherit - so the fold over
   starting tokens answers Never there (`starting_chain_unrooted`), and a glob whose first token is a leaf answers Always or Never.
   Hence the claim (`built_never_sometimes_r`) holds as soon as the chain holds no repetition - repetitions anywhere else are
   irrelevant - or the expression begins with a repetition whose body begins with a leaf (`starts_plainly`; `<a/:1,>b`, `</a:1,>`:
   rooted like the leaf; `</a:0,>` is rejected as a rooted sub-glob).  What remains is the known class nested_rooting: a repetition
   at the beginning of an alternation branch or of another repetition. *)
From WaxModel Require Import Base Token Variance Fold Rule Glob.
From WaxProofs Require Import SpecFacts RuleFacts DepthAltFacts BuiltNonempty RuleAdjFacts ParseShape ExhaustFacts ParseRel.
Local Open Scope nat_scope.

Lemma head_item_ok : forall o sp t0 ts, item_ok o (TCat sp (t0 :: ts)) ->
  step_err o (None, t0, hd_error ts) = None /\ forall c, In c (step_children o (None, t0, hd_error ts)) -> item_ok (fst c) (snd c).
Proof. intros o sp t0 ts Hok. apply (item_ok_steps o _ Hok). left. destruct ts; reflexivity. Qed.

Lemma first_alt_branches_ok : forall o sp s bs ts, item_ok o (TCat sp (TAlt s bs :: ts)) ->
  forall b, In b bs -> item_ok (outer_or o None (hd_error ts)) b /\ alt_ok_b (outer_or o None (hd_error ts)) b.
Proof.
  intros o sp s bs ts Hok b Hin. destruct (head_item_ok _ _ _ _ Hok) as [He Hch]. split.
  - apply (Hch (outer_or o None (hd_error ts), b)). apply in_map. exact Hin.
  - exact (proj2 (step_err_alt_none o None s bs _ He b Hin)).
Qed.

(* what the rule RootedSubGlob looks at, for a concatenation that begins with a leaf *)
Lemma leaf_first_terminals : forall s l ts, exists tm, terminals_of (TLeaf s l :: ts) = Some tm /\
  is_sep (term_first tm) || is_rooted_tree (term_first tm) = leaf_is_rooting l.
Proof.
  intros s l ts. destruct (terminals_of_ends (TLeaf s l :: ts)) as [tm [rest [Et [E _]]]]; [discriminate|]. exists tm. split; [exact Et|].
  injection E as <- _. destruct l as [| | | | |[|]]; reflexivity.
Qed.

Lemma check_alternation_unrooted : forall o sp s l ts, o_left o = None -> alt_ok_b o (TCat sp (TLeaf s l :: ts)) -> leaf_is_rooting l = false.
Proof.
  intros o sp s l ts Ho Ha. unfold alt_ok_b in Ha. cbn [concatenation] in Ha. destruct (leaf_first_terminals s l ts) as [tm [E Hr]].
  rewrite E in Ha. unfold check_alternation in Ha. fold (term_first tm) in Ha. rewrite Hr, Ho in Ha.
  destruct (leaf_is_rooting l); [discriminate|reflexivity].
Qed.

(* the starting chain holds no repetition; branches are concatenations, members are not *)
Fixpoint srf (t : tok) : bool :=
  match t with
  | TLeaf _ _ => true
  | TAlt _ bs => forallb (fun b => is_cat b && srf b) bs
  | TCat _ ts => match ts with [] => true | t0 :: _ => negb (is_cat t0) && srf t0 end
  | TRep _ _ _ _ => false
  end.

(* what the induction along the starting chain proves: checked in a context without left neighbour, the tree is never rooted *)
Definition chain_unrooted (t : tok) : Prop := forall o, o_left o = None ->
  match t with
  | TCat sp ts => item_ok o t -> alt_ok_b o t -> has_root_fold t = Some Never
  | TAlt sp bs => (forall b, In b bs -> item_ok o b /\ alt_ok_b o b) -> has_root_fold t = Some Never
  | _ => True
  end.

Theorem starting_chain_unrooted : forall t, srf t = true -> nonempty_branches t = true -> chain_unrooted t.
Proof.
  induction t as [sp l|sp bs IH|sp ts IH|sp b lo hi IH] using tok_ind'; intros Hs Hn o Ho; cbn [chain_unrooted]; try exact I.
  - intros Hb. destruct (proj1 (nonempty_branches_alt _ _) Hn) as [Hnil Hnb]. apply alt_never; [exact Hnil|].
    cbn [srf] in Hs. rewrite forallb_forall in Hs. rewrite Forall_forall in *. intros b Hin.
    specialize (Hs b Hin). apply andb_prop in Hs. destruct Hs as [Hcat Hsb]. destruct (Hb b Hin) as [Hok Ha].
    pose proof (IH b Hin Hsb (Hnb b Hin) o Ho) as HQ. destruct b as [| |spb tsb|]; try discriminate. exact (HQ Hok Ha).
  - intros Hok Ha. destruct (proj1 (nonempty_branches_cat _ _) Hn) as [Hnil Hnm]. destruct ts as [|t0 ts']; [congruence|].
    inversion IH as [|? ? IH0 _]; subst. inversion Hnm as [|? ? Hn0 _]; subst.
    cbn [srf] in Hs. apply andb_prop in Hs. destruct Hs as [Hnc0 Hs0]. rewrite has_root_fold_cat.
    destruct t0 as [s0 l0|s0 bs0|s0 cs0|s0 b0 lo0 hi0]; try discriminate.
    + cbn [has_root_fold]. rewrite (check_alternation_unrooted _ _ _ _ _ Ho Ha). reflexivity.
    + (* a nested alternation: its branches are checked in a context that has no left neighbour either *)
      exact (IH0 Hs0 Hn0 (outer_or o None (hd_error ts')) Ho (first_alt_branches_ok _ _ _ _ _ Hok)).
Qed.

Lemma first_alt_unrooted : forall sp s bs ts, check (TCat sp (TAlt s bs :: ts)) = Ok None ->
  srf (TAlt s bs) = true -> nonempty_branches (TAlt s bs) = true -> has_root_fold (TAlt s bs) = Some Never.
Proof.
  intros sp s bs ts Hck Hs Hn.
  exact (starting_chain_unrooted _ Hs Hn (outer_or outer_default None (hd_error ts)) eq_refl (first_alt_branches_ok _ _ _ _ _ (check_item_ok _ Hck))).
Qed.

(* a repetition in first position whose body begins with a leaf is rooted like the leaf; when its lower bound is zero, a rooting
   leaf would be a rooted sub-glob *)
Lemma first_rep_certain : forall sp s sb sm lm rest lo hi ts,
  check (TCat sp (TRep s (TCat sb (TLeaf sm lm :: rest)) lo hi :: ts)) = Ok None ->
  has_root_fold (TRep s (TCat sb (TLeaf sm lm :: rest)) lo hi) <> Some Sometimes.
Proof.
  intros sp s sb sm lm rest lo hi ts Hck. destruct (head_item_ok _ _ _ _ (check_item_ok _ Hck)) as [He _].
  apply step_err_rep_none in He. destruct He as [_ He]. cbn [concatenation] in He.
  destruct (leaf_first_terminals sm lm rest) as [tm [E Hr]]. rewrite E in He. unfold check_repetition in He. fold (term_first tm) in He. rewrite Hr in He.
  cbn [has_root_fold opt_list reduce_pure fold_left]. destruct (leaf_is_rooting lm); [|destruct (nr_lower _); cbn; discriminate].
  destruct (nr_lower (rep_range lo hi)); [discriminate|discriminate He|discriminate].
Qed.

(* `srf` without the conditions on shape, which every parsed tree meets (`sh_srf`) *)
Fixpoint chain_rep_free (t : tok) : bool :=
  match t with
  | TLeaf _ _ => true
  | TAlt _ bs => forallb chain_rep_free bs
  | TCat _ ts => match ts with [] => true | t0 :: _ => chain_rep_free t0 end
  | TRep _ _ _ _ => false
  end.

Definition starts_plainly (t : tok) : bool :=
  match t with
  | TCat _ (TRep _ b _ _ :: _) => match concatenation b with m :: _ => is_leaf m | [] => false end
  | _ => chain_rep_free t
  end.

Lemma rep_free_chain_rep_free : forall t, rep_free t = true -> chain_rep_free t = true.
Proof.
  induction t as [sp l|sp bs IH|sp ts IH|sp b lo hi IH] using tok_ind'; intros Hr; try reflexivity; try discriminate; cbn [rep_free chain_rep_free] in *.
  - rewrite forallb_forall in *. rewrite Forall_forall in IH. intros b Hin. exact (IH b Hin (Hr b Hin)).
  - destruct ts as [|t0 ts']; [reflexivity|]. inversion IH as [|? ? H0 _]; subst. cbn [forallb] in Hr. apply andb_prop in Hr. exact (H0 (proj1 Hr)).
Qed.

Lemma rep_free_starts_plainly : forall t, rep_free t = true -> starts_plainly t = true.
Proof.
  intros t Hr. pose proof (rep_free_chain_rep_free t Hr) as Hc. destruct t as [| |sp [|[] ts]|]; try exact Hc. discriminate.
Qed.

Lemma sh_srf : forall t, sh t -> chain_rep_free t = true -> srf t = true.
Proof.
  induction t as [sp l|sp bs IH|sp ts IH|sp b lo hi IH] using tok_ind'; intros Hs Hr; try reflexivity; try discriminate; cbn [sh srf chain_rep_free] in *.
  - exact (all_sh_shp true is_cat chain_rep_free srf bs (fun x H => H) IH Hs Hr).
  - destruct ts as [|t0 ts']; [reflexivity|]. inversion IH as [|? ? H0 _]; subst. destruct Hs as [[Hc Hs0] _]. rewrite Hc, (H0 Hs0 Hr). reflexivity.
Qed.

(* by the first token of the expression: a leaf is certain, an alternation never rooted, a repetition rooted like the leaf its body begins with *)
Theorem built_never_sometimes_r : forall e t r, build e = BuildOk t r -> starts_plainly t = true -> has_root t <> Sometimes.
Proof.
  intros e t r Hb Hp. pose proof (built_nonempty_branches e t r Hb) as Hn. destruct (build_ok_inv e t r Hb) as [Ep [Hck _]].
  pose proof (parse_sh e t Ep) as Hsh. unfold has_root.
  destruct (parse_ok_R e t Ep) as [[_ ->]|(ts & i1 & _ & Hnil & _ & ->)]; [discriminate|].
  destruct ts as [|t0 ts']; [congruence|]. destruct Hsh as [[Hc0 Hs0] _].
  destruct (proj1 (nonempty_branches_cat _ _) Hn) as [_ Hnm]. inversion Hnm as [|? ? Hn0 _]; subst. rewrite has_root_fold_cat.
  destruct t0 as [s0 l0|s0 bs0|s0 cs0|s0 b0 lo0 hi0]; [| |discriminate Hc0|].
  - cbn [has_root_fold]. destruct (leaf_is_rooting l0); discriminate.
  - cbn [starts_plainly chain_rep_free] in Hp. rewrite (first_alt_unrooted _ _ _ _ Hck (sh_srf _ Hs0 Hp) Hn0). discriminate.
  - cbn [starts_plainly] in Hp. destruct Hs0 as [Hcb _]. destruct b0 as [| |sb tsb|]; try discriminate Hcb. cbn [concatenation] in Hp.
    destruct tsb as [|[sm lm| | |] rest]; try discriminate Hp. pose proof (first_rep_certain _ _ _ _ _ _ _ _ _ Hck) as Hr.
    destruct (has_root_fold (TRep _ _ _ _)) as [[| |]|]; congruence.
Qed.

Theorem built_never_sometimes : forall e t r, build e = BuildOk t r -> rep_free t = true -> has_root t <> Sometimes.
Proof. intros e t r Hb Hr. exact (built_never_sometimes_r e t r Hb (rep_free_starts_plainly t Hr)). Qed.
