(* DepthRepFacts.v -- C10 for patterns whose repetitions are written out at least once and have a body with a single depth term
   (`<a/:1,>b`, `<[0-9]:1,3>.txt`, `src/<*/:1,2>*.rs`), together with alternations, concatenations, leaves and tree wildcards.
   The product by the repetition range preserves the summary of DepthAltFacts, so every expansion of the tree is summarised by a
   member of its term, by induction on the tree; patterns without repetitions are the special case. *)
From WaxModel Require Import Base Token Regex Spec Variance Fold.
From WaxProofs Require Import SpecFacts RuleFacts AlgebraClosure DepthFacts PruneFacts DepthTreeFacts DepthAltFacts AdjacencyFacts.
Local Open Scope N_scope.
Local Arguments N.add : simpl never.
Local Arguments N.mul : simpl never.
Local Arguments N.ltb : simpl never.

Fixpoint sumN (l : list N) : N := match l with [] => 0 | a :: r => a + sumN r end.

Lemma sum_within : forall l v, Forall (fun a => in_variance a v) l ->
  N.of_nat (length l) * lo_of v <= sumN l /\ match hi_of v with Some u => sumN l <= N.of_nat (length l) * u | None => True end.
Proof.
  induction l as [|a l IH]; intros v H; [cbn; destruct (hi_of v); lia|]. inversion H as [|? ? Ha H']; subst. destruct (IH v H') as [I1 I2].
  apply in_variance_within in Ha. destruct Ha as [Ha1 Ha2]. cbn [length sumN]. rewrite Nat2N.inj_succ. split; [lia|]. destruct (hi_of v) as [u|]; [lia|exact I].
Qed.

Lemma product_sound : forall v r c, nvar_product v r = Ok c ->
  (forall l, Forall (fun a => in_variance a v) l -> in_variance (N.of_nat (length l)) r -> in_variance (sumN l) c) /\
  lo_of c <= lo_of v * lo_of r /\ (hi_of v = None -> 1 <= lo_of r -> hi_of c = None).
Proof.
  intros v r c H. destruct (nvar_product_ok _ _ _ H) as [L [U|[Z ->]]].
  - (* as many summands as the range allows, each within the value: the sum lies within the products of the bounds *)
    split; [|split; [lia|intros Hn _; rewrite U, Hn; reflexivity]]. intros l Hl Hn. destruct (sum_within l v Hl) as [S1 S2].
    apply in_variance_within in Hn. destruct Hn as [Hn1 Hn2]. apply in_variance_within. split; [nia|].
    rewrite U. destruct (hi_of v), (hi_of r); cbn [mul_opt]; try exact I. nia.
  - (* a factor is the invariant zero: every summand is zero, or there is none *)
    split; [|split; [cbn [lo_of]; lia|destruct Z as [-> | ->]; [discriminate|cbn [lo_of]; lia]]].
    intros l Hl Hn. cbn [in_variance]. destruct Z as [-> | ->].
    + destruct (sum_within l (Inv 0) Hl) as [_ S]. cbn [hi_of] in S. lia.
    + destruct l; [reflexivity|discriminate Hn].
Qed.

Lemma term_of_flags_inj : forall a b a' b', term_of_flags a b = term_of_flags a' b' -> a = a' /\ b = b'.
Proof. intros [] [] [] [] H; try discriminate; auto. Qed.

Lemma flags_noncoal : forall T x, x <> [] -> flags T x -> T <> TCoalescent -> T = term_of_flags (fb x) (lb x).
Proof. intros T x Hx H Hn. destruct (flags_cases _ _ H) as [[-> _]|H1]; [congruence|exact H1]. Qed.

(* Copies of a body whose term is closed or coalescent begin and end with a boundary, so two copies would put two boundaries
   together: there is exactly one.  Otherwise k copies have k times the runs of one, less the runs that merge at a junction:
   they merge only where both ends are open, and then each copy had one run to spare. *)
Lemma rep_runs : forall T v xs, xs <> [] -> Forall (K2 (T, v)) xs -> chain_ok false (concat xs) = true ->
  concat xs <> [] /\ flags T (concat xs) /\ bound2 T (Inv (N.of_nat (length xs) * lo_of v)) (concat xs).
Proof.
  intros T v. induction xs as [|x xs IH]; intros Hne HK Hc; [congruence|]. inversion HK as [|? ? Kx HK']; subst.
  destruct Kx as [Nx [Ix [Vx [Fx Bx]]]]. cbn [fst snd] in *. destruct xs as [|y ys].
  - cbn [concat length]. rewrite app_nil_r in *. split; [exact Nx|]. split; [exact Fx|]. unfold bound2 in *. cbn [lo_of]. destruct T; lia.
  - remember (y :: ys) as rest eqn:Er. assert (Hrn : rest <> []) by (subst; discriminate). cbn [concat] in Hc |- *.
    destruct (chain_ok_app x (concat rest) false Hc Nx) as [Hcx Hcr].
    destruct (IH Hrn HK' (chain_ok_weaken _ _ Hcr)) as [NX [FX BX]].
    pose proof (chain_ok_junction _ _ Hcr) as Hj. split; [apply app_nonempty; exact Nx|].
    destruct (flags_cases _ _ Fx) as [[-> [Hf1 [Hl1 _]]]|HTx].
    { (* a lone tree wildcard cannot be repeated *)
      destruct (flags_cases _ _ FX) as [[_ [Hf2 _]]|HT2]; [rewrite Hl1, Hf2 in Hj; discriminate|destruct (fb (concat rest)), (lb (concat rest)); discriminate]. }
    destruct (flags_cases _ _ FX) as [[-> _]|HTX]; [destruct (fb x), (lb x); discriminate|].
    assert (Heq := HTx). rewrite HTX in Heq. apply term_of_flags_inj in Heq. destruct Heq as [Hfb Hlb].
    split.
    + unfold flags. rewrite (single_tree_app _ _ Nx NX), (fb_app _ _ Nx), (lb_app _ _ NX). rewrite HTx. f_equal. symmetry. exact Hlb.
    + pose proof (runs_junction _ _ Nx NX Hj) as R. rewrite HTx in Bx, BX |- *. apply bound2_flags. apply bound2_flags in Bx, BX.
      cbn [length lo_of] in *. rewrite Nat2N.inj_succ. rewrite Hfb in R. lia.
Qed.

Lemma rep_range_low : forall lo hi n, in_bounds n lo hi -> lo_of (rep_range lo hi) = lo /\ in_variance (N.of_nat n) (rep_range lo hi).
Proof.
  intros lo hi n [H1 H2]. split; [|apply fco_within; split; assumption]. apply fco_sorted. destruct hi; [lia|exact I].
Qed.

Lemma nsep_concat : forall xs, nsep (concat xs) = sumN (map nsep xs).
Proof. induction xs as [|x xs IH]; [reflexivity|]. cbn [concat map sumN]. rewrite nsep_app, IH. reflexivity. Qed.

Lemma trees_concat : forall xs, trees (concat xs) = existsb trees xs.
Proof. induction xs as [|x xs IH]; [reflexivity|]. cbn [concat existsb]. rewrite trees_app, IH. reflexivity. Qed.

Lemma K2_rep : forall T v c xs lo hi,
  Forall (K2 (T, v)) xs -> in_bounds (length xs) lo hi -> 1 <= lo -> chain_ok false (concat xs) = true ->
  nvar_product v (rep_range lo hi) = Ok c -> K2 (T, c) (concat xs).
Proof.
  intros T v c xs lo hi HK Hb Hlo Hc Hp.
  assert (Hne : xs <> []) by (intros ->; destruct Hb as [Hb _]; cbn in Hb; lia).
  destruct (rep_runs T v xs Hne HK Hc) as [NX [FX BX]]. destruct (rep_range_low _ _ _ Hb) as [Rl Rn].
  destruct (product_sound _ _ _ Hp) as [P1 [P2 P3]]. rewrite Rl in P2, P3.
  unfold K2. cbn [fst snd]. rewrite trees_concat. rewrite Forall_forall in HK. split; [exact NX|]. split; [|split; [|split; [exact FX|]]].
  - intros Ht. rewrite nsep_concat. apply P1; [|rewrite map_length; exact Rn].
    apply Forall_forall. intros a Ha. apply in_map_iff in Ha. destruct Ha as [x [<- Hx]]. destruct (HK x Hx) as [_ [Ix _]]. apply Ix.
    destruct (trees x) eqn:Etx; [|reflexivity]. rewrite <- Ht. symmetry. apply existsb_exists. eauto.
  - intros Ht. apply existsb_exists in Ht. destruct Ht as [x [Hx Htx]]. destruct (HK x Hx) as [_ [_ [Vx _]]]. apply P3; [apply Vx; exact Htx|exact Hlo].
  - destruct Hb as [Hb1 Hb2]. unfold bound2 in *. cbn [lo_of] in BX.
    assert (Hmono : lo_of v * lo <= N.of_nat (length xs) * lo_of v) by nia.
    destruct T; lia.
Qed.

(* the class: every repetition is written out at least once and its body has a single depth term, so that every copy is
   summarised by the same term and the product by the range applies *)
Definition single_member (r : res (option bterm)) : bool :=
  match r with Ok (Some bt) => match members bt with [_] => true | _ => false end | _ => false end.

Fixpoint simple_reps (t : tok) : bool :=
  match t with
  | TLeaf _ _ => true
  | TAlt _ bs => forallb simple_reps bs
  | TCat _ ts => forallb simple_reps ts
  | TRep _ b lo _ => simple_reps b && (1 <=? lo) && single_member (depth_fold b)
  end.

Lemma rep_free_simple_reps : forall t, rep_free t = true -> simple_reps t = true.
Proof. apply rep_free_class; reflexivity. Qed.

Lemma product_single_member : forall bt T v r y, members bt = [(T, v)] -> bterm_product bt r = Ok y ->
  exists c, nvar_product v r = Ok c /\ In (T, c) (members y).
Proof.
  intros bt T v r y Em Ep.
  assert (Hs : forall s, sterm_product (T, v) r = Ok s -> exists c, nvar_product v r = Ok c /\ s = (T, c)).
  { intros s Es. unfold sterm_product in Es. cbn [fst snd] in Es. apply rbind_ok in Es. destruct Es as [c [Ec Es]]. inversion Es. eauto. }
  destruct bt as [a|ss]; cbn [members] in Em; cbn [bterm_product] in Ep; apply rbind_ok in Ep; destruct Ep as [z [Ez Ep]]; inversion Ep; subst y.
  - injection Em as ->. destruct (Hs z Ez) as [c [Ec ->]]. exists c. split; [exact Ec|left; reflexivity].
  - subst ss. cbn [rmapM] in Ez. apply rbind_ok in Ez. destruct Ez as [s [Es Ez]]. cbn [rbind] in Ez. inversion Ez; subst z.
    destruct (Hs s Es) as [c [Ec ->]]. exists c. split; [exact Ec|]. cbn [members]. apply set_of_list_in. left. reflexivity.
Qed.

(* the depth fold of the tree yields a term, and every expansion in which no two boundaries are adjacent is summarised by one of its members *)
Definition summarised (t : tok) : Prop :=
  forall r, depth_fold t = Ok r -> exists b, r = Some b /\
    forall x, Expands t x -> chain_ok false x = true -> exists s, In s (members b) /\ K2 s x.

(* the concatenation: fold along the members, with the expansion of the prefix summarised by a member of the accumulator *)
Lemma cat_summarised : forall ts xs terms,
  Forall summarised ts -> Forall2 Expands ts xs -> Forall2 (fun t r => depth_fold t = Ok r) ts terms ->
  forall acc xa c sa, In sa (members acc) -> K2 sa xa -> chain_ok false (xa ++ concat xs) = true ->
  rfold bterm_conj acc (flat_map opt_list terms) = Ok c ->
  exists s, In s (members c) /\ K2 s (xa ++ concat xs).
Proof.
  intros ts xs terms IH HX. revert terms IH.
  induction HX as [|t0 x0 ts' xs' Hx0 _ IHX]; intros terms IH HT acc xa c sa Hsa HK Hc H.
  - inversion HT; subst. cbn in H. inversion H; subst. cbn [concat]. rewrite app_nil_r. exists sa. auto.
  - inversion HT as [|? r0 ? terms' Hr0 HT']; subst. inversion IH as [|? ? IH0 IH']; subst.
    destruct (IH0 r0 Hr0) as [b0 [-> Hcov]].
    cbn [flat_map opt_list app rfold] in H. apply rbind_ok in H. destruct H as [acc' [Ec H]].
    cbn [concat] in Hc |- *.
    destruct (chain_ok_app xa (x0 ++ concat xs') false Hc (proj1 HK)) as [_ Hcr]. pose proof (chain_ok_prefix _ _ _ Hcr) as Hc0.
    destruct (Hcov x0 Hx0 (chain_ok_weaken _ _ Hc0)) as [s0 [Hs0 HK0]].
    destruct (bterm_conj_members _ _ _ sa s0 Ec Hsa Hs0) as [s' [Hs' Hin']].
    pose proof (K2_conj _ _ _ _ _ HK HK0 (chain_ok_junction _ _ Hc0) Hs') as HK1.
    rewrite app_assoc in Hc |- *.
    apply (IHX terms' IH' HT' acc' (xa ++ x0) c s' Hin' HK1 Hc H).
Qed.

Theorem simple_reps_summarised : forall t, nonempty_branches t = true -> simple_reps t = true -> summarised t.
Proof.
  induction t as [sp l|sp bs IH|sp ts IH|sp b lo hi IH] using tok_ind'; intros Hne Hrf r Hr.
  - cbn in Hr. inversion Hr; subst. exists (depth_leaf l). split; [reflexivity|]. intros x Hx _. inversion Hx; subst.
    rewrite depth_leaf_sterm. exists (sterm_of l). split; [left; reflexivity|apply K2_leaf].
  - cbn [nonempty_branches simple_reps] in *. apply andb_prop in Hne. destruct Hne as [Hnil Hall]. rewrite forallb_forall in Hall, Hrf. rewrite Forall_forall in IH.
    cbn [depth_fold] in Hr. apply rbind_ok in Hr. destruct Hr as [terms [Er Hr]].
    assert (Hbr : forall bb, In bb bs -> exists b1, In b1 (flat_map opt_list terms) /\
              forall x, Expands bb x -> chain_ok false x = true -> exists s, In s (members b1) /\ K2 s x).
    { intros bb Hin. destruct (rmapM_ok_in _ _ _ bb Er Hin) as [r1 [Hr1 Hir]]. destruct (IH bb Hin (Hall bb Hin) (Hrf bb Hin) r1 Hr1) as [b1 [-> Hcov]].
      exists b1. split; [apply flat_map_opt_in; exact Hir|exact Hcov]. }
    destruct (rreduce_disj_members _ _ Hr) as [c [-> Hmem]].
    { destruct bs as [|b0 bs']; [discriminate|]. destruct (Hbr b0 (or_introl eq_refl)) as [b1 [Hb1 _]]. intros E. rewrite E in Hb1. contradiction. }
    exists c. split; [reflexivity|]. intros x Hx Hc. inversion Hx as [|sp0 bs0 bb x0 Hin Hxb| |]; subst.
    destruct (Hbr bb Hin) as [b1 [Hb1 Hcov]]. destruct (Hcov x Hxb Hc) as [s [Hs HK]]. exists s. split; [exact (Hmem b1 s Hb1 Hs)|exact HK].
  - cbn [nonempty_branches simple_reps] in *. apply andb_prop in Hne. destruct Hne as [Hnil Hall].
    cbn [depth_fold] in Hr. apply rbind_ok in Hr. destruct Hr as [terms [Er Hr]]. pose proof (rmapM_ok_forall2 _ _ _ Er) as HT.
    assert (IH' : Forall summarised ts).
    { apply Forall_forall. intros t Ht. rewrite Forall_forall in IH. rewrite forallb_forall in Hall, Hrf. exact (IH t Ht (Hall t Ht) (Hrf t Ht)). }
    (* the term of the first member starts the fold *)
    destruct ts as [|t0 ts']; [discriminate|]. inversion HT as [|? r0 ? terms' Hr0 HT']; subst. inversion IH' as [|? ? IH0 IH'']; subst.
    destruct (IH0 r0 Hr0) as [b0 [-> Hcov]].
    cbn [flat_map opt_list app rreduce] in Hr. destruct (rfold bterm_conj b0 (flat_map opt_list terms')) as [c|] eqn:Ef; [|discriminate]. inversion Hr; subst r.
    exists c. split; [reflexivity|]. intros x Hx Hc. inversion Hx as [| |sp0 ts0 xs HF|]; subst. inversion HF as [|? x0 ? xs' Hx0 HF']; subst.
    cbn [concat] in Hc |- *. destruct (Hcov x0 Hx0 (chain_ok_prefix _ _ _ Hc)) as [s0 [Hs0 HK0]].
    exact (cat_summarised ts' xs' terms' IH'' HF' HT' b0 x0 c s0 Hs0 HK0 Hc Ef).
  - cbn [nonempty_branches simple_reps] in *. apply andb_prop in Hne. destruct Hne as [Hn _].
    apply andb_prop in Hrf. destruct Hrf as [Hrf Hsm]. apply andb_prop in Hrf. destruct Hrf as [Hsr Hlo]. apply N.leb_le in Hlo.
    cbn [depth_fold] in Hr. apply rbind_ok in Hr. destruct Hr as [term [Eb Hr]]. unfold single_member in Hsm. rewrite Eb in Hsm.
    destruct (IH Hn Hsr term Eb) as [bt [-> Hcov]]. destruct (members bt) as [|[T v] [|s' ms]] eqn:Em; try discriminate.
    cbn [opt_list rreduce rfold rmap rbind] in Hr. apply rbind_ok in Hr. destruct Hr as [y [Ep Hr]]. inversion Hr; subst r.
    exists y. split; [reflexivity|]. intros x Hx Hc. inversion Hx as [| | |sp0 b0 lo0 hi0 xs Hbd HF]; subst.
    assert (HKs : Forall (K2 (T, v)) xs).
    { apply Forall_forall. intros xi Hxi. rewrite Forall_forall in HF. destruct (Hcov xi (HF xi Hxi) (chain_ok_in_concat _ _ Hc xi Hxi)) as [s1 [Hs1 HK1]].
      destruct Hs1 as [<-|[]]. exact HK1. }
    destruct (product_single_member bt T v _ y Em Ep) as [c [Hpc Hin]]. exists (T, c). split; [exact Hin|]. eapply K2_rep; eassumption.
Qed.

Section RepSound.
Variable orbit : char -> list char.
Hypothesis orbit_nosep : forall c d, In d (orbit c) -> d <> SEP.

Theorem depth_rep_sound : forall t v p x,
  nonempty_branches t = true -> simple_reps t = true -> lits_nosep t = true ->
  depth_variance t = Ok v -> depth_closed_variant t = false ->
  Expands t x -> FlatMatch orbit true true x p -> chain_ok false x = true ->
  canonical p = true -> 1 <= ncomp p ->
  starts_sep p = (match x with a :: _ => leaf_is_rooting a | [] => false end) ->
  in_variance (ncomp p) v.
Proof.
  intros t v p x Hne Hrf Hlit Hv Hcv Hx Hm Hc Hcan Hn Hroot.
  unfold depth_variance in Hv. apply rbind_ok in Hv. destruct Hv as [r [Ed Hv]].
  destruct (simple_reps_summarised t Hne Hrf r Ed) as [b [-> Hcov]]. destruct (Hcov x Hx Hc) as [[T vs] [Hs HK]].
  destruct (bterm_finalize_members_ok _ _ _ Hv Hs) as [f Hf]. apply (bterm_finalize_cover _ _ _ _ _ Hv Hs Hf).
  apply (K2_sound orbit orbit_nosep T vs f x p HK Hf); try assumption.
  - exact (member_not_closed_variant t b _ Ed Hcv Hs).
  - exact (expands_lit_ok t x Hlit Hx).
Qed.

End RepSound.
