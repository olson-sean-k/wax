(* DepthAltFacts.v -- the summary argument of C10.  A term of the depth algebra is a sound summary [K2] of a flat leaf sequence:
   the separator count of a tree-free sequence lies in its variance, a sequence with a tree wildcard has no upper bound, and
   the lower bound is at most the number of runs.  Every operation of the algebra is read through its closed lower bound
   [lo_of] and optional upper bound [hi_of]; summaries compose under conjunction whatever the grouping (the algebra is not
   associative), and the final disjunction covers the finalized members.  [K] is the summary with exact counts, as the algebra
   computes without repetitions.  Last, the left-nested fold of a concatenation of leaves with tree wildcards.
   [rep_free], the trees without repetitions, is defined here as well. *)
From WaxModel Require Import Base Token Spec Variance Fold Rule.
From WaxProofs Require Import SpecFacts RuleFacts AlgebraClosure DepthFacts ExhaustFacts PruneFacts DepthTreeFacts.
Local Open Scope N_scope.
Local Arguments N.add : simpl never.
Local Arguments N.ltb : simpl never.

(* [gfirst is_bnd] / [glast is_bnd] of AdjacencyFacts are convertible to [fb] / [lb] *)
Definition fb (x : list leaf) : bool := match x with a :: _ => is_bnd a | [] => false end.
Definition lb (x : list leaf) : bool := match last_opt x with Some a => is_bnd a | None => false end.
Fixpoint nsep (x : list leaf) : N := match x with [] => 0 | a :: r => (if is_sep_leaf a then 1 else 0) + nsep r end.
Definition trees (x : list leaf) : bool := existsb is_tree_leaf x.
Definition single_tree (x : list leaf) : bool := match x with [LTree _] => true | _ => false end.

Lemma lb_app : forall x y, y <> [] -> lb (x ++ y) = lb y.
Proof. intros x y Hy. unfold lb. rewrite last_opt_app_r by exact Hy. reflexivity. Qed.
Lemma fb_app : forall x y, x <> [] -> fb (x ++ y) = fb x.
Proof. intros [|a x] y H; [congruence|reflexivity]. Qed.
Lemma nsep_app : forall x y, nsep (x ++ y) = nsep x + nsep y.
Proof. induction x as [|a x IH]; intros y; cbn [app nsep]; [lia|]. rewrite IH. lia. Qed.
Lemma trees_app : forall x y, trees (x ++ y) = trees x || trees y.
Proof. intros. unfold trees. apply existsb_app. Qed.

Lemma count_seps_nsep : forall x, count_seps x = nsep x.
Proof.
  induction x as [|a x IH]; [reflexivity|]. unfold count_seps in *. cbn [filter nsep]. destruct (is_sep_leaf a); cbn [length]; rewrite <- IH; lia.
Qed.

Lemma app_nonempty : forall (x y : list leaf), x <> [] -> x ++ y <> [].
Proof. intros [|a x] y H; [congruence|discriminate]. Qed.

Lemma runs_flag : forall x, runs false x = runs true x + (if negb (is_nil x) && negb (fb x) then 1 else 0).
Proof. intros [|a x]; [reflexivity|]. cbn [runs is_nil fb negb andb]. destruct (is_bnd a); cbn [negb]; lia. Qed.

Lemma runs_app : forall x y pr, x <> [] -> runs pr (x ++ y) = runs pr x + runs (negb (lb x)) y.
Proof.
  induction x as [|a x IH]; intros y pr Hx; [congruence|]. destruct x as [|b x'].
  - cbn [app runs]. change (lb [a]) with (is_bnd a). destruct (is_bnd a); cbn [negb runs]; lia.
  - assert (El : lb (a :: b :: x') = lb (b :: x')) by reflexivity. rewrite El.
    assert (Hz : b :: x' <> []) by discriminate. remember (b :: x') as z eqn:Ez. clear Ez El.
    change ((a :: z) ++ y) with (a :: (z ++ y)). cbn [runs].
    destruct (is_bnd a); rewrite IH by exact Hz; lia.
Qed.

(* two runs that meet at the junction are one; with the flags as numbers no case is left to split *)
Lemma runs_junction : forall x y, x <> [] -> y <> [] -> lb x && fb y = false ->
  runs false (x ++ y) + 1 = runs false x + runs false y + N.b2n (lb x) + N.b2n (fb y).
Proof.
  intros x y Nx Ny Hj. rewrite (runs_app x y false Nx). destruct (lb x); cbn [negb andb N.b2n] in *; [rewrite Hj; cbn [N.b2n]; lia|].
  rewrite (runs_flag y). destruct y; [congruence|]. cbn [is_nil negb andb]. destruct (fb (l :: y)); cbn [negb N.b2n]; lia.
Qed.

Lemma chain_ok_app : forall x y pb, chain_ok pb (x ++ y) = true -> x <> [] ->
  chain_ok pb x = true /\ chain_ok (lb x) y = true.
Proof.
  induction x as [|a x IH]; intros y pb H Hx; [congruence|]. cbn [app chain_ok] in H. apply andb_prop in H. destruct H as [Ha H].
  destruct x as [|b x'].
  - cbn [app] in H. cbn [chain_ok]. rewrite Ha. split; [reflexivity|exact H].
  - destruct (IH y _ H ltac:(discriminate)) as [H1 H2]. split; [cbn [chain_ok]; rewrite Ha; exact H1|exact H2].
Qed.

Lemma chain_ok_prefix : forall x y pb, chain_ok pb (x ++ y) = true -> chain_ok pb x = true.
Proof. intros [|a x] y pb H; [reflexivity|]. exact (proj1 (chain_ok_app (a :: x) y pb H ltac:(discriminate))). Qed.

Lemma chain_ok_weaken : forall x pb, chain_ok pb x = true -> chain_ok false x = true.
Proof. intros [|a x] pb H; [reflexivity|]. cbn [chain_ok andb negb] in *. apply andb_prop in H. destruct H as [_ H]. exact H. Qed.

Lemma chain_ok_junction : forall pb y, chain_ok pb y = true -> pb && fb y = false.
Proof. intros pb [|a y] H; [apply andb_false_r|]. cbn [chain_ok fb] in *. destruct (pb && is_bnd a); [discriminate|reflexivity]. Qed.

Lemma chain_ok_in_concat : forall xs pb, chain_ok pb (concat xs) = true -> forall x, In x xs -> chain_ok false x = true.
Proof.
  induction xs as [|x0 xs IH]; intros pb H x Hin; [contradiction|]. cbn [concat] in H. destruct x0 as [|a x0'].
  - cbn [app] in H. destruct Hin as [<-|Hin]; [reflexivity|]. exact (IH pb H x Hin).
  - destruct (chain_ok_app (a :: x0') (concat xs) pb H ltac:(discriminate)) as [H1 H2]. destruct Hin as [<-|Hin].
    + exact (chain_ok_weaken _ _ H1).
    + exact (IH _ H2 x Hin).
Qed.

Lemma single_tree_facts : forall x, single_tree x = true ->
  fb x = true /\ lb x = true /\ runs false x = 0 /\ trees x = true /\ x <> [].
Proof. intros [|[] [|b x]] H; try discriminate. repeat split; try reflexivity. discriminate. Qed.

Lemma single_tree_app : forall x y, x <> [] -> y <> [] -> single_tree (x ++ y) = false.
Proof. intros [|a [|b x]] [|c y] Hx Hy; try congruence; cbn; destruct a; reflexivity. Qed.

Lemma tree_free_single : forall x, trees x = false -> single_tree x = false.
Proof. intros x Ht. destruct (single_tree x) eqn:E; [|reflexivity]. destruct (single_tree_facts x E) as [_ [_ [_ [Ht' _]]]]. congruence. Qed.

Definition lowN (v : nvar) : N :=
  match v with Inv n => n | Var Unbounded => 0 | Var (Bounded (BLower n)) => n | Var (Bounded (BUpper _)) => 0 | Var (Bounded (BBoth l _)) => l end.
Definition upN (v : nvar) : option N :=
  match v with Inv n => Some n | Var Unbounded => None | Var (Bounded (BLower _)) => None | Var (Bounded (BUpper n)) => Some n | Var (Bounded (BBoth l e)) => Some (l + e) end.
(* [lowN] / [upN] are [lo_of] / [hi_of] of AlgebraClosure by conversion, spelled out for the statements of C10 *)

Definition within (n : N) (l : N) (u : option N) : Prop := l <= n /\ match u with Some u => n <= u | None => True end.
Lemma in_variance_within : forall n v, in_variance n v <-> within n (lo_of v) (hi_of v).
Proof. intros n [x|[[k|k|l e]|]]; unfold within; cbn [in_variance lo_of hi_of]; lia. Qed.

Lemma vform_shape : forall v, vform v -> shape v.
Proof. intros [j|[[k|k|a b]|]] H; try exact I; destruct H. Qed.

Lemma shape_lo : forall v, shape v -> lo v = lo_of v.
Proof. intros [j|[[k|k|a b]|]] H; try reflexivity; destruct H. Qed.

Lemma vform_hi_of : forall v, vform v <-> hi_of v = None.
Proof. intros [j|[[k|k|a b]|]]; cbn; split; intros H; try exact I; try reflexivity; try discriminate; destruct H. Qed.

Lemma fco_within : forall l u n, within n l u -> in_variance n (from_closed_open l u).
Proof.
  intros l u n [Hl Hu]. apply in_variance_within. destruct (fco_sorted l u) as [-> ->]; [destruct u; [lia|exact I]|]. split; assumption.
Qed.

Lemma conj_sound : forall a b c, nvar_conj a b = Ok c ->
  (forall x y, in_variance x a -> in_variance y b -> in_variance (x + y) c) /\
  lo_of c <= lo_of a + lo_of b /\ (hi_of a = None \/ hi_of b = None -> hi_of c = None).
Proof.
  intros a b c H. destruct (nvar_conj_ok _ _ _ H) as [Hup [Hlow _]]. split; [|split; [exact Hlow|]].
  - intros x y Hx Hy. apply in_variance_within in Hx, Hy. destruct Hx as [Hx1 Hx2], Hy as [Hy1 Hy2].
    apply in_variance_within. split; [lia|]. rewrite Hup. destruct (hi_of a), (hi_of b); cbn [add_opt]; try exact I; lia.
  - intros Hn. rewrite Hup. destruct Hn as [-> | ->]; [reflexivity|destruct (hi_of a); reflexivity].
Qed.

(* finalisation adds the component an open term leaves uncounted; a closed exact term counted one separator too many *)
Lemma fin_sound : forall T v f, sterm_finalize (T, v) = Ok f ->
  (hi_of v = None -> hi_of f = None) /\
  lo_of f <= (match T with TOpen => lo_of v + 1 | _ => lo_of v end) /\
  (forall n, in_variance n v -> match T with
                                | TOpen => in_variance (n + 1) f
                                | TClosed => match v with Inv _ => in_variance (N.pred n) f | _ => in_variance n f end
                                | _ => in_variance n f end).
Proof.
  intros T v f H. unfold sterm_finalize in H. cbn [fst snd] in H. destruct T.
  - destruct (conj_sound _ _ _ H) as [M [L U]]. split; [intros Hn; apply U; left; exact Hn|]. split; [cbn in L; exact L|]. intros n Hn. apply M; [exact Hn|reflexivity].
  - inversion H; subst. split; [auto|]. split; [lia|auto].
  - inversion H; subst. split; [auto|]. split; [lia|auto].
  - inversion H; subst. destruct v as [m|b]; cbn.
    + split; [discriminate|]. split; [lia|]. intros n ->. reflexivity.
    + split; [auto|]. split; [lia|auto].
  - inversion H; subst. split; [auto|]. split; [lia|auto].
Qed.

Lemma conj_any : forall a b c, shape a -> shape b -> nvar_conj a b = Ok c ->
  shape c /\ lo c = lo a + lo b /\ (vform a \/ vform b -> vform c) /\ (forall i j, a = Inv i -> b = Inv j -> c = Inv (i + j)).
Proof.
  intros a b c Ha Hb H. destruct (nvar_conj_ok _ _ _ H) as [Hup [_ Hlow]].
  assert (Hv : vform a \/ vform b -> vform c /\ lo c = lo a + lo b).
  { intros Hab. assert (Hn : hi_of c = None) by (rewrite Hup; destruct Hab as [Hx|Hx]; apply vform_hi_of in Hx; rewrite Hx; [reflexivity|destruct (hi_of a); reflexivity]).
    pose proof (proj2 (vform_hi_of c) Hn) as Hc. split; [exact Hc|]. rewrite (shape_lo a Ha), (shape_lo b Hb), (shape_lo c (vform_shape c Hc)). exact (Hlow Hn). }
  destruct a as [i|va]; [destruct b as [j|vb]|].
  - cbn [nvar_conj] in H. apply rbind_ok in H. destruct H as [s [E H]]. apply cadd_ok in E. inversion H; subst.
    split; [exact I|]. split; [reflexivity|]. split; [intros [[]|[]]|]. intros i0 j0 E1 E2. inversion E1; inversion E2; subst. reflexivity.
  - assert (Hb' : vform (Var vb)) by (destruct vb as [[]|]; try destruct Hb; exact I). destruct (Hv (or_intror Hb')) as [Hc Hl].
    split; [apply vform_shape; exact Hc|]. split; [exact Hl|]. split; [intros _; exact Hc|intros; discriminate].
  - assert (Ha' : vform (Var va)) by (destruct va as [[]|]; try destruct Ha; exact I). destruct (Hv (or_introl Ha')) as [Hc Hl].
    split; [apply vform_shape; exact Hc|]. split; [exact Hl|]. split; [intros _; exact Hc|intros; discriminate].
Qed.

Lemma sterm_conj_view : forall T1 v1 T2 v2 T v, sterm_conj (T1, v1) (T2, v2) = Ok (T, v) ->
  match term_conj T1 T2 with
  | CLeft t => T = t /\ exists f, sterm_finalize (T1, v1) = Ok f /\ nvar_conj f v2 = Ok v
  | CRight t => T = t /\ exists f, sterm_finalize (T2, v2) = Ok f /\ nvar_conj v1 f = Ok v
  | CNeither t => T = t /\ nvar_conj v1 v2 = Ok v
  end.
Proof.
  intros T1 v1 T2 v2 T v H. unfold sterm_conj in H. cbn [fst snd] in H. destruct (term_conj T1 T2) as [t|t|t].
  - apply rbind_ok in H. destruct H as [f [Ef H]]. apply rbind_ok in H. destruct H as [c [Ec H]]. inversion H; subst. eauto.
  - apply rbind_ok in H. destruct H as [f [Ef H]]. apply rbind_ok in H. destruct H as [c [Ec H]]. inversion H; subst. eauto.
  - apply rbind_ok in H. destruct H as [c [Ec H]]. inversion H; subst. auto.
Qed.

(* [flags]: the termination records whether the sequence begins / ends with a boundary; a lone tree wildcard is coalescent.
   [bound] / [bound2]: an open term leaves one run uncounted, a closed one has counted a separator beyond the runs *)
Definition flags (T : termination) (x : list leaf) : Prop :=
  if single_tree x then T = TCoalescent else T = term_of_flags (fb x) (lb x).
Definition bound (T : termination) (v : nvar) (x : list leaf) : Prop :=
  match T with TOpen => lo v + 1 <= runs false x | TClosed => lo v <= runs false x + 1 | _ => lo v <= runs false x end.

Definition K (s : sterm) (x : list leaf) : Prop :=
  x <> [] /\ shape (snd s) /\ (trees x = false -> snd s = Inv (nsep x)) /\ (trees x = true -> vform (snd s)) /\
  flags (fst s) x /\ bound (fst s) (snd s) x.

Definition bound2 (T : termination) (v : nvar) (x : list leaf) : Prop :=
  match T with TOpen => lo_of v + 1 <= runs false x | TClosed => lo_of v <= runs false x + 1 | _ => lo_of v <= runs false x end.

Definition K2 (s : sterm) (x : list leaf) : Prop :=
  x <> [] /\ (trees x = false -> in_variance (nsep x) (snd s)) /\ (trees x = true -> hi_of (snd s) = None) /\
  flags (fst s) x /\ bound2 (fst s) (snd s) x.

Definition sterm_of (l : leaf) : sterm :=
  match l with LSep => (TClosed, Inv 1) | LTree _ => (TCoalescent, Var Unbounded) | _ => (TOpen, Inv 0) end.
Lemma depth_leaf_sterm : forall l, depth_leaf l = BConj (sterm_of l).
Proof. intros []; reflexivity. Qed.

Lemma K2_leaf : forall l, K2 (sterm_of l) [l].
Proof.
  intros l. unfold K2, flags, bound2, trees, lb. split; [discriminate|].
  destruct l; cbn; repeat split; try discriminate; try reflexivity; try lia; intros; try discriminate; exact I.
Qed.

Lemma flags_cases : forall T x, flags T x ->
  (T = TCoalescent /\ fb x = true /\ lb x = true /\ runs false x = 0 /\ trees x = true) \/
  (T = term_of_flags (fb x) (lb x)).
Proof.
  intros T x H. unfold flags in H. destruct (single_tree x) eqn:E; [|right; exact H].
  left. destruct (single_tree_facts x E) as [H1 [H2 [H3 [H4 _]]]]. auto.
Qed.

Lemma bound2_flags : forall s e v x, bound2 (term_of_flags s e) v x <-> lo_of v + 1 <= runs false x + N.b2n s + N.b2n e.
Proof. intros [] [] v x; cbn [term_of_flags bound2 N.b2n]; lia. Qed.

(* beside a lone tree wildcard the neighbour is finalized, and the tree stands as a boundary at its end of the sequence *)
Lemma term_conj_tree_l : forall s e, term_conj TCoalescent (term_of_flags s e) = CRight (term_of_flags true e).
Proof. intros [] []; reflexivity. Qed.
Lemma term_conj_tree_r : forall s e, term_conj (term_of_flags s e) TCoalescent = CLeft (term_of_flags s true).
Proof. intros [] []; reflexivity. Qed.

Lemma fin_lo : forall T v f, sterm_finalize (T, v) = Ok f -> lo_of f <= lo_of v + 1.
Proof. intros T v f H. destruct (fin_sound T v f H) as [_ [G _]]. destruct T; lia. Qed.

(* summaries compose under conjunction, whatever the grouping: the flags are those of the outer ends, and the bounds add up
   because the runs do ([runs_junction]) *)
Lemma K2_conj : forall s1 s2 s x1 x2, K2 s1 x1 -> K2 s2 x2 -> lb x1 && fb x2 = false -> sterm_conj s1 s2 = Ok s -> K2 s (x1 ++ x2).
Proof.
  intros [T1 v1] [T2 v2] [T v] x1 x2 [N1 [I1 [V1 [F1 B1]]]] [N2 [I2 [V2 [F2 B2]]]] Hj H.
  apply sterm_conj_view in H. cbn [fst snd] in *. unfold K2. cbn [fst snd]. split; [apply app_nonempty; exact N1|].
  unfold flags. rewrite (single_tree_app x1 x2 N1 N2), (fb_app x1 x2 N1), (lb_app x1 x2 N2), trees_app, nsep_app.
  pose proof (runs_junction x1 x2 N1 N2 Hj) as R.
  destruct (flags_cases _ _ F1) as [[-> [Hf1 [Hl1 [Hr1 Ht1]]]] | -> ]; destruct (flags_cases _ _ F2) as [[-> [Hf2 [Hl2 [Hr2 Ht2]]]] | -> ].
  - rewrite Hl1, Hf2 in Hj. discriminate.
  - rewrite Hl1 in Hj. cbn [andb] in Hj. rewrite Hf1, Hl1, Hr1, Ht1, Hj in *.
    rewrite term_conj_tree_l in H. destruct H as [-> [f [Ef Ec]]]. pose proof (fin_lo _ _ _ Ef) as G. destruct (conj_sound _ _ _ Ec) as [_ [C2 C3]].
    split; [discriminate|]. split; [intros _; apply C3; left; exact (V1 eq_refl)|]. split; [reflexivity|].
    apply bound2_flags. apply bound2_flags in B2. cbn [bound2 N.b2n] in *. lia.
  - rewrite Hf2, andb_true_r in Hj. rewrite Hf2, Hl2, Hr2, Ht2, Hj, ?orb_true_r in *.
    rewrite term_conj_tree_r in H. destruct H as [-> [f [Ef Ec]]]. pose proof (fin_lo _ _ _ Ef) as G. destruct (conj_sound _ _ _ Ec) as [_ [C2 C3]].
    split; [discriminate|]. split; [intros _; apply C3; right; exact (V2 eq_refl)|]. split; [reflexivity|].
    apply bound2_flags. apply bound2_flags in B1. cbn [bound2 N.b2n] in *. lia.
  - rewrite term_conj_flags in H. destruct H as [-> Ec]. destruct (conj_sound _ _ _ Ec) as [C1 [C2 C3]].
    split; [|split; [|split; [reflexivity|]]].
    + intros Ht. apply orb_false_iff in Ht. destruct Ht as [Ht1 Ht2]. apply C1; [apply I1; exact Ht1|apply I2; exact Ht2].
    + intros Ht. apply C3. apply orb_true_iff in Ht. destruct Ht as [Ht|Ht]; [left; apply V1|right; apply V2]; exact Ht.
    + apply bound2_flags. apply bound2_flags in B1, B2. lia.
Qed.

Lemma K_iff : forall s x, K s x <-> K2 s x /\ (trees x = false -> snd s = Inv (nsep x)).
Proof.
  intros [T v] x. unfold K, K2, bound, bound2. cbn [fst snd]. split.
  - intros [N [S [E [V [F B]]]]]. rewrite (shape_lo v S) in B. split; [|exact E]. split; [exact N|].
    split; [intros Ht; rewrite (E Ht); reflexivity|]. split; [intros Ht; apply vform_hi_of, V, Ht|]. split; assumption.
  - intros [[N [_ [V [F B]]]] E].
    assert (S : shape v) by (destruct (trees x); [apply vform_shape, vform_hi_of, V; reflexivity|rewrite (E eq_refl); exact I]).
    rewrite <- (shape_lo v S) in B. split; [exact N|]. split; [exact S|]. split; [exact E|]. split; [intros Ht; apply vform_hi_of, V, Ht|]. split; assumption.
Qed.

Lemma K_conj : forall s1 s2 s x1 x2, K s1 x1 -> K s2 x2 -> lb x1 && fb x2 = false -> sterm_conj s1 s2 = Ok s -> K s (x1 ++ x2).
Proof.
  intros s1 s2 s x1 x2 H1 H2 Hj H. apply K_iff in H1, H2. destruct H1 as [K1 E1], H2 as [K2' E2]. apply K_iff. split; [exact (K2_conj _ _ _ _ _ K1 K2' Hj H)|].
  (* without tree wildcards neither termination is coalescent, and exact counts add *)
  rewrite trees_app, nsep_app. intros Ht. apply orb_false_iff in Ht. destruct Ht as [Ht1 Ht2].
  destruct s1 as [T1 v1], s2 as [T2 v2], s as [T v], K1 as [_ [_ [_ [F1 _]]]], K2' as [_ [_ [_ [F2 _]]]]. cbn [fst snd] in *.
  unfold flags in F1, F2. rewrite (tree_free_single _ Ht1) in F1. rewrite (tree_free_single _ Ht2) in F2. subst T1 T2.
  apply sterm_conj_view in H. rewrite term_conj_flags, (E1 Ht1), (E2 Ht2) in H. destruct H as [_ H]. cbn [nvar_conj] in H.
  apply rbind_ok in H. destruct H as [c [Ec H]]. apply cadd_ok in Ec. inversion H; subst. reflexivity.
Qed.

Lemma sterm_eqb_eq : forall a b, sterm_eqb a b = true -> a = b.
Proof.
  intros [ta va] [tb vb] H. unfold sterm_eqb in H. cbn [fst snd] in H. apply andb_prop in H. destruct H as [Ht Hv].
  apply nvar_eqb_eq in Hv. subst. destruct ta, tb; try discriminate; reflexivity.
Qed.

Lemma set_insert_in : forall x s y, In y (set_insert x s) <-> y = x \/ In y s.
Proof.
  induction s as [|z s IH]; intros y; cbn [set_insert].
  - cbn. split; [intros [H|[]]; auto|intros [H|[]]; auto].
  - destruct (sterm_eqb x z) eqn:E.
    + apply sterm_eqb_eq in E. subst z. cbn [In]. split; [auto|]. intros [->|H]; auto.
    + cbn [In]. rewrite IH. split; intros H; repeat destruct H as [H|H]; auto.
Qed.

Lemma fold_insert_in : forall l acc y, In y (fold_left (fun s x => set_insert x s) l acc) <-> In y l \/ In y acc.
Proof.
  induction l as [|x l IH]; intros acc y; cbn [fold_left].
  - cbn. split; [auto|intros [[]|H]; exact H].
  - rewrite IH, set_insert_in. cbn [In]. split; intros H; repeat destruct H as [H|H]; auto.
Qed.

Lemma set_of_list_in : forall l y, In y (set_of_list l) <-> In y l.
Proof. intros l y. unfold set_of_list. rewrite fold_insert_in. cbn. split; [intros [H|[]]; exact H|auto]. Qed.

Definition members (b : bterm) : list sterm := match b with BConj s => [s] | BDisj ss => ss end.

Lemma bterm_disj_members : forall l r y, In y (members (bterm_disj l r)) <-> In y (members l) \/ In y (members r).
Proof.
  intros [a|ss] [b|bs] y; cbn [bterm_disj members].
  - rewrite set_of_list_in. cbn. split; intros H; repeat destruct H as [H|H]; auto; contradiction.
  - rewrite set_insert_in. cbn. split; intros H; repeat destruct H as [H|H]; auto; contradiction.
  - rewrite set_insert_in. cbn. split; intros H; repeat destruct H as [H|H]; auto; contradiction.
  - rewrite fold_insert_in. split; intros [H|H]; auto.
Qed.

Lemma rmapM_all_ok : forall {A B} (f : A -> res B) l rs, rmapM f l = Ok rs -> forall r, In r rs -> exists a, In a l /\ f a = Ok r.
Proof. intros A B f l rs H r Hin. exact (forall2_in_r _ l rs r (rmapM_ok_forall2 f l rs H) Hin). Qed.

Lemma bterm_conj_members : forall l r c s1 s2, bterm_conj l r = Ok c -> In s1 (members l) -> In s2 (members r) ->
  exists s, sterm_conj s1 s2 = Ok s /\ In s (members c).
Proof.
  intros [a|ss] [b|bs] c s1 s2 H H1 H2; cbn [bterm_conj members] in *.
  - destruct H1 as [<-|[]]. destruct H2 as [<-|[]]. destruct (sterm_conj a b) as [x|] eqn:E; [|discriminate]. inversion H; subst. exists x. split; [reflexivity|left; reflexivity].
  - destruct H1 as [<-|[]]. destruct (rmapM (fun b0 => sterm_conj a b0) bs) as [cs|] eqn:E; [|discriminate]. inversion H; subst.
    destruct (rmapM_ok_in _ _ _ s2 E H2) as [x [Hx Hi]]. exists x. split; [exact Hx|]. cbn [members]. apply set_of_list_in. exact Hi.
  - destruct H2 as [<-|[]]. destruct (rmapM (fun a0 => sterm_conj a0 b) ss) as [cs|] eqn:E; [|discriminate]. inversion H; subst.
    destruct (rmapM_ok_in _ _ _ s1 E H1) as [x [Hx Hi]]. exists x. split; [exact Hx|]. cbn [members]. apply set_of_list_in. exact Hi.
  - destruct (rmapM (fun ab => sterm_conj (fst ab) (snd ab)) (list_prod ss bs)) as [cs|] eqn:E; [|discriminate]. inversion H; subst.
    assert (Hp : In (s1, s2) (list_prod ss bs)) by (apply in_prod; assumption).
    destruct (rmapM_ok_in _ _ _ (s1, s2) E Hp) as [x [Hx Hi]]. exists x. split; [exact Hx|]. cbn [members]. apply set_of_list_in. exact Hi.
Qed.

Lemma rfold_disj_members : forall l acc c, rfold rdisj acc l = Ok c -> forall y, In y (members c) <-> In y (members acc) \/ exists b, In b l /\ In y (members b).
Proof.
  induction l as [|b l IH]; intros acc c H y.
  - cbn in H. inversion H; subst. split; [auto|]. intros [H0|[b [[] _]]]. exact H0.
  - cbn [rfold] in H. unfold rdisj at 1 in H. cbn [rbind] in H. rewrite (IH _ _ H), bterm_disj_members. split.
    + intros [[H0|H0]|[b0 [Hb Hy]]]; [auto|right; exists b; split; [left; reflexivity|exact H0]|right; exists b0; split; [right; exact Hb|exact Hy]].
    + intros [H0|[b0 [[<-|Hb] Hy]]]; [auto|auto|right; exists b0; auto].
Qed.

Lemma rreduce_disj_members : forall l r, rreduce rdisj l = Ok r -> l <> [] ->
  exists c, r = Some c /\ forall b y, In b l -> In y (members b) -> In y (members c).
Proof.
  intros [|a l] r H Hl; [congruence|]. cbn [rreduce] in H. destruct (rfold rdisj a l) as [c|] eqn:Ef; [|discriminate]. inversion H; subst.
  exists c. split; [reflexivity|]. intros b y Hb Hy. apply (rfold_disj_members _ _ _ Ef). destruct Hb as [<-|Hb]; [left; exact Hy|right; exists b; auto].
Qed.

Lemma flat_map_opt_in : forall {A} (l : list (option A)) a, In (Some a) l -> In a (flat_map opt_list l).
Proof. intros A l a H. apply in_flat_map. exists (Some a). split; [exact H|left; reflexivity]. Qed.

(* the trees without repetitions: the class of the theorems of C03, C06, C08, C09 and C10 that say "without repetitions".  The
   classes of those properties that admit repetitions (simple_reps, required_reps, rep_class, shz, starts_plainly) are compared
   with it: each contains it (the lemmas rep_free_*, most through AdjacencyFacts.rep_free_class) *)
Fixpoint rep_free (t : tok) : bool :=
  match t with
  | TLeaf _ _ => true
  | TAlt _ bs => forallb rep_free bs
  | TCat _ ts => forallb rep_free ts
  | TRep _ _ _ _ => false
  end.

Lemma bvr_union_cover : forall a other c n, (do r <- bvr_union a other; Ok (Var r)) = Ok c ->
  in_variance n (Var (Bounded a)) \/ in_variance n other -> in_variance n c.
Proof.
  intros a other c n H Hin. apply rbind_ok in H. destruct H as [r [H Hc]]. inversion Hc; subst c. destruct (bvr_union_nf a other) as [E|E]; rewrite E in H; [discriminate|].
  pose proof (fco_within (N.min (lo_of (Var (Bounded a))) (lo_of other)) (max_opt (hi_of (Var (Bounded a))) (hi_of other)) n) as Hw.
  destruct (from_closed_open _ _) as [x|r0]; [discriminate|]. inversion H; subst. apply Hw.
  rewrite !in_variance_within in Hin. unfold within in *.
  destruct Hin as [[H1 H2]|[H1 H2]]; (split; [lia|]); destruct (hi_of (Var (Bounded a))), (hi_of other); cbn [max_opt]; try exact I; lia.
Qed.

Lemma nvar_disj_cover : forall a b c n, nvar_disj a b = Ok c -> in_variance n a \/ in_variance n b -> in_variance n c.
Proof.
  intros a b c n H Hin. unfold nvar_disj in H. destruct (nvar_eqb a b) eqn:E.
  - apply nvar_eqb_eq in E. subst b. inversion H; subst. destruct Hin; assumption.
  - destruct a as [x|[ba|]], b as [y|[bb|]]; cbn [rbind] in H; try (inversion H; subst; exact I).
    + inversion H; subst. unfold n_bound. cbn [in_variance] in Hin. destruct (try_lower_upper _ _) as [x0|] eqn:Ex; [|exact I].
      destruct (tlu_view _ _ _ Ex) as [_ [Lx Ux]]. apply in_variance_within. rewrite Lx, Ux by (cbn beta iota; lia). unfold within. lia.
    + apply (bvr_union_cover _ _ _ n H). tauto.
    + apply (bvr_union_cover _ _ _ n H). tauto.
    + apply (bvr_union_cover _ _ _ n H). tauto.
Qed.

Lemma rfold_disj_cover : forall l acc c n, rfold nvar_disj acc l = Ok c -> in_variance n acc \/ (exists v, In v l /\ in_variance n v) -> in_variance n c.
Proof.
  induction l as [|v l IH]; intros acc c n H Hin.
  - cbn in H. inversion H; subst. destruct Hin as [H0|[v [[] _]]]. exact H0.
  - cbn [rfold] in H. apply rbind_ok in H. destruct H as [a' [E H]]. apply (IH _ _ n H).
    destruct Hin as [H0|[v0 [[<-|Hv] Hi]]].
    + left. apply (nvar_disj_cover _ _ _ n E). left. exact H0.
    + left. apply (nvar_disj_cover _ _ _ n E). right. exact Hi.
    + right. exists v0. auto.
Qed.

Lemma bterm_finalize_cover : forall b v s f n, bterm_finalize b = Ok v -> In s (members b) -> sterm_finalize s = Ok f -> in_variance n f -> in_variance n v.
Proof.
  intros [a|ss] v s f n H Hs Hf Hin; cbn [bterm_finalize members] in *.
  - destruct Hs as [<-|[]]. rewrite Hf in H. inversion H; subst. exact Hin.
  - apply rbind_ok in H. destruct H as [vs [Em H]].
    destruct (rmapM_ok_in _ _ _ s Em Hs) as [f' [Hf' Hi]]. rewrite Hf in Hf'. inversion Hf'; subst f'.
    destruct vs as [|v0 vs']; [contradiction|]. cbn [rreduce] in H. destruct (rfold nvar_disj v0 vs') as [c|] eqn:Ef; [|discriminate]. cbn [rmap rbind] in H.
    inversion H; subst. apply (rfold_disj_cover _ _ _ n Ef). destruct Hi as [<-|Hi]; [left; exact Hin|right; exists f; auto].
Qed.

Lemma bterm_finalize_members_ok : forall b v s, bterm_finalize b = Ok v -> In s (members b) -> exists f, sterm_finalize s = Ok f.
Proof.
  intros [a|ss] v s H Hs; cbn [bterm_finalize members] in *.
  - destruct Hs as [<-|[]]. eauto.
  - apply rbind_ok in H. destruct H as [vs [Em _]]. destruct (rmapM_ok_in _ _ _ s Em Hs) as [f [Hf _]]. eauto.
Qed.

Lemma member_not_closed_variant : forall t b s, depth_fold t = Ok (Some b) -> depth_closed_variant t = false -> In s (members b) ->
  sterm_closed_variant s = false.
Proof.
  intros t b s Ed Hcv Hs. unfold depth_closed_variant in Hcv. rewrite Ed in Hcv. destruct b as [s0|ss]; cbn [members] in Hs.
  - destruct Hs as [<-|[]]. exact Hcv.
  - destruct (sterm_closed_variant s) eqn:E; [|reflexivity]. rewrite <- Hcv. symmetry. apply existsb_exists. eauto.
Qed.

Definition lit_ok (l : leaf) : bool := match l with LLit _ s => nosep s | _ => true end.

Lemma expands_lit_ok : forall t x, lits_nosep t = true -> Expands t x -> forallb lit_ok x = true.
Proof.
  induction t as [sp l|sp bs IH|sp ts IH|sp b lo hi IH] using tok_ind'; intros x Hl Hx.
  - inversion Hx; subst. cbn [forallb]. rewrite andb_true_r. destruct l; try reflexivity. exact Hl.
  - inversion Hx as [|sp0 bs0 bb x0 Hin Hxb| |]; subst. cbn [lits_nosep] in Hl. rewrite forallb_forall in Hl. rewrite Forall_forall in IH. exact (IH bb Hin x (Hl bb Hin) Hxb).
  - inversion Hx as [| |sp0 ts0 xs HF|]; subst. cbn [lits_nosep] in Hl. clear Hx. induction HF as [|t0 x0 ts' xs' Hx0 _ IHF]; [reflexivity|].
    inversion IH as [|? ? I0 I']; subst. cbn [forallb] in Hl. apply andb_prop in Hl. destruct Hl as [H0 Hl']. cbn [concat]. rewrite forallb_app.
    rewrite (I0 x0 H0 Hx0), (IHF I' Hl'). reflexivity.
  - inversion Hx as [| | |sp0 b0 lo0 hi0 xs Hb HF]; subst. cbn [lits_nosep] in Hl. clear Hx Hb. induction HF as [|x0 xs' Hx0 _ IHF]; [reflexivity|].
    cbn [concat]. rewrite forallb_app, (IH x0 Hl Hx0). exact IHF.
Qed.

Lemma leaf_ok_of : forall x, forallb lit_ok x = true -> trees x = false -> forallb leaf_ok x = true.
Proof.
  induction x as [|a x IH]; intros Hl Ht; [reflexivity|]. cbn [forallb] in *. unfold trees in *. cbn [existsb] in Ht.
  apply andb_prop in Hl. destruct Hl as [Ha Hl]. apply orb_false_iff in Ht. destruct Ht as [Hta Ht].
  rewrite (IH Hl Ht), andb_true_r. destruct a; try reflexivity; try discriminate. exact Ha.
Qed.

Lemma tree_free_ends : forall a x, trees (a :: x) = false -> last_opt (a :: x) <> Some LSep ->
  lb (a :: x) = false /\ is_bnd a = is_sep_leaf a /\ leaf_is_rooting a = is_sep_leaf a.
Proof.
  intros a x Ht Hl. assert (Hb : forall l, In l (a :: x) -> is_bnd l = is_sep_leaf l /\ leaf_is_rooting l = is_sep_leaf l).
  { intros l Hin. assert (El : is_tree_leaf l = false).
    { destruct (is_tree_leaf l) eqn:E; [|reflexivity]. rewrite <- Ht. symmetry. apply existsb_exists. eauto. }
    destruct l; try discriminate; auto. }
  split; [|apply Hb; left; reflexivity]. unfold lb. destruct (last_opt (a :: x)) as [l|] eqn:El; [|reflexivity].
  rewrite (proj1 (Hb l (last_opt_in _ _ El))). destruct l; try reflexivity. congruence.
Qed.

Section Sound.
Variable orbit : char -> list char.
Hypothesis orbit_nosep : forall c d, In d (orbit c) -> d <> SEP.

Lemma K2_sound : forall T vs f x p,
  K2 (T, vs) x -> sterm_finalize (T, vs) = Ok f -> sterm_closed_variant (T, vs) = false ->
  forallb lit_ok x = true -> FlatMatch orbit true true x p -> chain_ok false x = true ->
  canonical p = true -> 1 <= ncomp p ->
  starts_sep p = (match x with a :: _ => leaf_is_rooting a | [] => false end) ->
  in_variance (ncomp p) f.
Proof.
  intros T vs f x p [Nx [Iv [Vf [Fl Bd]]]] Hf Hncv Hlit Hm Hc Hcan Hn Hroot. cbn [fst snd] in *.
  destruct x as [|a x']; [congruence|]. destruct (fin_sound _ _ _ Hf) as [F1 [F2 F3]].
  destruct (trees (a :: x')) eqn:Et.
  - specialize (Vf eq_refl). pose proof (runs_ncomp orbit a x' p Hc Hm Hroot Hn) as Hr.
    apply in_variance_within. split; [|rewrite (F1 Vf); exact I].
    unfold bound2 in Bd. destruct T; try lia.
    (* closed: an exact count has an upper bound; a range is the known class closed_variant_finalize, excluded by Hncv *)
    destruct vs as [n0|bv]; [discriminate Vf|discriminate Hncv].
  - pose proof (flat_seps orbit orbit_nosep _ _ _ _ (leaf_ok_of _ Hlit Et) Hm) as Hsp. rewrite count_seps_nsep in Hsp.
    destruct (tree_free_ends a x' Et (no_last_sep orbit _ _ _ _ Hm Hcan Hn)) as [Hlb [Hba Hra]].
    unfold flags in Fl. rewrite (tree_free_single _ Et), Hlb in Fl. cbn [fb] in Fl. rewrite Hba in Fl.
    rewrite (ncomp_seps p Hn), Hroot, Hra, Hsp. specialize (F3 _ (Iv eq_refl)). subst T.
    destruct (is_sep_leaf a); cbn [term_of_flags] in F3; [rewrite N.add_0_r|]; exact F3.
Qed.

End Sound.

(* Beside the summary, a sequence that ends with a tree wildcard keeps its lower bound below the number of runs, also when its
   termination is closed; this is not stable under regrouping, so the invariant follows the fold leaf by leaf. *)
Definition ends_with_tree (x : list leaf) : bool := match last_opt x with Some (LTree _) => true | _ => false end.

Lemma K2_snoc_tree : forall T v x r T' v', K2 (T, v) x -> lb x = false ->
  sterm_conj (T, v) (sterm_of (LTree r)) = Ok (T', v') -> lo_of v' <= runs false (x ++ [LTree r]).
Proof.
  intros T v x r T' v' [Nx [_ [_ [F B]]]] Hl H. cbn [fst snd] in *. apply sterm_conj_view in H. cbn [sterm_of] in H.
  destruct (flags_cases _ _ F) as [[_ [_ [Hl' _]]]| ->]; [congruence|]. rewrite Hl in *.
  rewrite term_conj_tree_r in H. destruct H as [_ [f [Ef Ec]]]. destruct (fin_sound _ _ _ Ef) as [_ [G _]]. destruct (conj_sound _ _ _ Ec) as [_ [C _]].
  rewrite (runs_app x [LTree r] false Nx). cbn [runs is_bnd lo_of] in *. unfold bound2 in B. destruct (fb x); cbn [term_of_flags] in *; lia.
Qed.

Lemma fold_leaves_summary : forall ls x s acc,
  K2 s x -> (ends_with_tree x = true -> lo_of (snd s) <= runs false x) -> chain_ok (lb x) ls = true ->
  rfold bterm_conj (BConj s) (map depth_leaf ls) = Ok acc ->
  exists s', acc = BConj s' /\ K2 s' (x ++ ls) /\ (ends_with_tree (x ++ ls) = true -> lo_of (snd s') <= runs false (x ++ ls)).
Proof.
  induction ls as [|l ls IH]; intros x s acc HK Ht Hc H.
  - cbn in H. inversion H; subst. rewrite app_nil_r. exists s. auto.
  - cbn [map rfold] in H. rewrite depth_leaf_sterm in H. cbn [bterm_conj] in H.
    apply rbind_ok in H. destruct H as [b [Eb H]]. apply rbind_ok in Eb. destruct Eb as [s1 [E Eb]]. inversion Eb; subst b.
    cbn [chain_ok] in Hc. apply andb_prop in Hc. destruct Hc as [Hadj Hc]. apply negb_true_iff in Hadj.
    pose proof (K2_conj s (sterm_of l) s1 x [l] HK (K2_leaf l) Hadj E) as HK1.
    replace (x ++ l :: ls) with ((x ++ [l]) ++ ls) by (rewrite <- app_assoc; reflexivity).
    apply (IH (x ++ [l]) s1 acc HK1); [|rewrite lb_app by discriminate; exact Hc|exact H].
    intros He. unfold ends_with_tree in He. rewrite last_opt_app_r in He by discriminate. destruct l; try discriminate.
    destruct s as [T v], s1 as [T1 v1]. apply (K2_snoc_tree T v x root T1 v1 HK); [|exact E].
    cbn [is_bnd] in Hadj. rewrite andb_true_r in Hadj. exact Hadj.
Qed.

(* the last hypothesis is [depth_variance] of a concatenation of leaves ([depth_variance_leaves]) *)
Lemma flat_tree_depth : forall l0 ls v,
  chain_ok false (l0 :: ls) = true -> trees (l0 :: ls) = true -> last_opt (l0 :: ls) <> Some LSep ->
  (do r <- rreduce bterm_conj (map depth_leaf (l0 :: ls)); bterm_finalize (match r with Some x => x | None => bterm_zero end)) = Ok v ->
  hi_of v = None /\ lo_of v <= runs false (l0 :: ls).
Proof.
  intros l0 ls v Hc Ht Hlast H. cbn [map rreduce] in H. rewrite depth_leaf_sterm in H.
  destruct (rfold bterm_conj (BConj (sterm_of l0)) (map depth_leaf ls)) as [acc|] eqn:Ef; [|discriminate]. cbn [rmap rbind] in H.
  cbn [chain_ok andb negb] in Hc.
  destruct (fold_leaves_summary ls [l0] (sterm_of l0) acc (K2_leaf l0)) as [[T' v'] [-> [[_ [_ [V [F B]]]] Hlow]]]; [|exact Hc|exact Ef|].
  { intros He. destruct l0; try discriminate He. cbn. lia. }
  cbn [app fst snd bterm_finalize] in *. destruct (fin_sound _ _ _ H) as [F1 [F2 _]]. split; [exact (F1 (V Ht))|].
  unfold bound2 in B. destruct (flags_cases T' (l0 :: ls) F) as [[-> _] | ->]; [lia|].
  destruct (lb (l0 :: ls)) eqn:El.
  - (* the last leaf is a boundary and no separator *)
    assert (He : ends_with_tree (l0 :: ls) = true).
    { unfold lb, ends_with_tree in *. destruct (last_opt (l0 :: ls)) as [[]|]; try discriminate El; [exfalso; apply Hlast; reflexivity|reflexivity]. }
    specialize (Hlow He). destruct (fb (l0 :: ls)); cbn [term_of_flags] in F2; lia.
  - destruct (fb (l0 :: ls)); cbn [term_of_flags] in *; lia.
Qed.

Theorem depth_flat_tree_sound : forall orbit sp ts v p l0 rest,
  forallb is_leaf ts = true -> adjacent_boundary ts = None -> existsb tree_tok ts = true ->
  map leaf_of ts = l0 :: rest ->
  depth_variance (TCat sp ts) = Ok v -> Lang orbit (TCat sp ts) p ->
  canonical p = true -> 1 <= ncomp p -> starts_sep p = leaf_is_rooting l0 ->
  in_variance (ncomp p) v.
Proof.
  intros orbit sp ts v p l0 rest Hl Ha Hex Hls Hv HL Hcan Hn Hroot.
  pose proof (lang_leaves orbit sp ts p Hl HL) as Hm. rewrite (depth_variance_leaves sp ts Hl) in Hv.
  pose proof (chain_of_tokens ts false Hl Ha (fun H => ltac:(discriminate))) as Hc.
  assert (Ht : trees (map leaf_of ts) = true).
  { apply existsb_exists in Hex. destruct Hex as [t [Hin Ht]]. apply existsb_exists. exists (leaf_of t). split; [apply in_map; exact Hin|].
    destruct t as [s0 l| | |]; try discriminate. destruct l; try discriminate. reflexivity. }
  rewrite Hls in *. destruct (flat_tree_depth l0 rest v Hc Ht (no_last_sep orbit _ _ _ _ Hm Hcan Hn) Hv) as [Hup Hlo].
  pose proof (runs_ncomp orbit l0 rest p Hc Hm Hroot Hn) as Hr.
  apply in_variance_within. split; [lia|rewrite Hup; exact I].
Qed.
