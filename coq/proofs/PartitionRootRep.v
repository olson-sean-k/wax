(* PartitionRootRep.v -- C08: the postfix of a partition is never rooted (and partitioning it again changes nothing) for globs that
   build, whose repetitions are written out at least once with bodies that begin and end with a leaf (the class of C06 over expansions
   with repetitions), and whose starting chain holds no repetition (a glob rooted through a repetition at its very beginning keeps its
   root: known class rooted_repetition).  The prefix loop stops either at a variant boundary (a tree wildcard, which gives up its root)
   or right after the last boundary before the first variant token; in the second case what follows a boundary cannot begin with one
   (the rule checker over expansions, C06), and a token that reports a root has an expansion that begins with one. *)
From WaxModel Require Import Base Token Spec Variance Fold Query Glob.
From WaxProofs Require Import AlgebraFacts SpecFacts ParseRel OwnedFacts BuiltFacts BuiltNonempty DepthTreeFacts DepthAltFacts AdjacencyFacts ParseShape
  RuleZomRep RootRep PartitionFacts PartitionRoot PartitionLang PartitionIdem.
Local Open Scope nat_scope.

Lemma rooted_expansion_r : forall t, tok_bounds_ok t -> nonempty_branches t = true -> has_root_fold t <> Some Never ->
  exists x, Expands t x /\ fb x = true.
Proof. exact has_root_expansion. Qed.

Lemma boundary_token_leaf : forall t, is_boundary t = true -> exists sp l, t = TLeaf sp l /\ is_bnd l = true.
Proof. intros [sp l| | |] H; try discriminate. exists sp, l. split; [reflexivity|]. destruct l; try discriminate; reflexivity. Qed.

Lemma nonboundary_leaf_unrooted : forall sp l, is_boundary (TLeaf sp l) = false -> has_root_fold (TLeaf sp l) = Some Never.
Proof. intros sp l H. destruct l as [| | | | |[|]]; try discriminate; reflexivity. Qed.

Lemma boundary_then_rooted : forall sp pre pb first rest,
  tok_bounds_ok (TCat sp (pre ++ pb :: first :: rest)) -> nonempty_branches (TCat sp (pre ++ pb :: first :: rest)) = true ->
  is_boundary pb = true -> has_root_fold first <> Some Never ->
  exists x, Expands (TCat sp (pre ++ pb :: first :: rest)) x /\ chain_ok false x = false.
Proof.
  intros sp pre pb first rest Hb Hn Hpb Hh. apply tok_bounds_ok_cat in Hb. destruct (proj1 (nonempty_branches_cat _ _) Hn) as [_ Hnm].
  apply Forall_app in Hb, Hnm. destruct Hb as [Hb1 Hb2], Hnm as [Hn1 Hn2].
  inversion Hb2 as [|? ? _ Hb3]; subst. inversion Hb3; subst. inversion Hn2 as [|? ? _ Hn3]; subst. inversion Hn3; subst.
  destruct (has_root_expansion first) as [xf [Hxf Hff]]; [assumption..|]. destruct (boundary_token_leaf pb Hpb) as [sb [lb [-> Hlb]]].
  destruct (forall2_expansions pre) as [xpre Hxpre]; [assumption..|]. destruct (forall2_expansions rest) as [xrest Hxrest]; [assumption..|].
  exists (concat (xpre ++ [lb] :: xf :: xrest)). split.
  - constructor. apply Forall2_app; [exact Hxpre|]. constructor; [constructor|]. constructor; assumption.
  - rewrite concat_app. cbn [concat]. apply (gchain_breaks is_bnd); [exact Hlb|].
    change (fb (xf ++ concat xrest) = true). rewrite fb_app; [exact Hff|]. intros ->. discriminate.
Qed.

Theorem built_postfix_never_rooted_r : forall hc e sp ts r text post e',
  build e = BuildOk (TCat sp ts) r -> rep_class (TCat sp ts) = true -> chain_rep_free (TCat sp ts) = true ->
  partition hc e (TCat sp ts) = Ok (PartSome text post e') -> has_root post = Never.
Proof.
  intros hc e sp ts r text post e' Hb Hrc Hcrf Hp.
  pose proof (built_bounds_ok e _ r Hb) as Hbounds. pose proof (built_nonempty_branches e _ r Hb) as Hne.
  destruct (build_ok_inv e _ r Hb) as [Ep [Hck _]]. pose proof (parse_sh e _ Ep) as Hsh.
  destruct (partition_shape hc _ _ _ _ _ _ Hbounds Hp) as [pre [first [rest [-> [Hi [-> _]]]]]].
  rewrite has_root_respan. unfold has_root. cbn [has_root_fold].
  enough (Goal : has_root_fold (fst (unroot first)) = Some Never) by (rewrite Goal; reflexivity).
  (* a variant boundary is a tree wildcard, which gives up its root *)
  assert (Tree : vart hc first -> is_boundary first = true -> has_root_fold (fst (unroot first)) = Some Never).
  { intros [b Hv] Hbf. destruct (boundary_token_leaf first Hbf) as [[a n] [l [-> Hl]]]. destruct l; try discriminate Hl.
    - discriminate Hv.
    - destruct root; reflexivity. }
  (* at the very beginning there is no repetition, and an alternation is never rooted *)
  assert (Start : pre = [] -> is_boundary first = false -> has_root_fold first = Some Never).
  { intros -> Hnb. cbn [app sh chain_rep_free] in *. destruct Hsh as [[Hc0 Hs0] _]. destruct (proj1 (nonempty_branches_cat _ _) Hne) as [_ Hnm]. inversion Hnm; subst.
    destruct first as [s0 l0|s0 bs0|s0 cs0|s0 b0 lo0 hi0]; try discriminate.
    - apply nonboundary_leaf_unrooted. exact Hnb.
    - apply (first_alt_unrooted sp s0 bs0 rest Hck); [apply sh_srf|]; assumption. }
  (* after a boundary, a token that reports a root would put two boundaries side by side in some expansion *)
  assert (After : ends_boundary pre -> has_root_fold first = Some Never).
  { intros [l' [pb [-> Hpb]]]. rewrite <- app_assoc in Hb, Hrc, Hbounds, Hne. cbn [app] in Hb, Hrc, Hbounds, Hne.
    enough (Hn : ~ has_root_fold first <> Some Never) by (destruct (has_root_fold first) as [[]|]; try reflexivity; exfalso; apply Hn; discriminate).
    intros Hh. destruct (boundary_then_rooted sp l' pb first rest Hbounds Hne Hpb Hh) as [x [Hx Hc]].
    rewrite (built_no_adjacent_boundaries_r e _ r Hb Hrc x Hx) in Hc. discriminate. }
  destruct (itp_cut hc _ _ _ _ Hi) as [[Hpre [t0 [rest0 [E [Hr Hv]]]]]|[txts [_ [_ [E|[[v [rest0 [E [Hv Hbv]]]]|[Hpre Hrun]]]]]]].
  - injection E as <- <-. destruct (is_boundary first); [exact (Tree Hv eq_refl)|]. exfalso.
    unfold has_root in Hr. rewrite (Start Hpre eq_refl) in Hr. discriminate.
  - discriminate.
  - injection E as <- <-. exact (Tree Hv Hbv).
  - pose proof (open_run_head hc _ _ Hrun) as Ebf. rewrite (unroot_nonboundary _ Ebf). destruct Hpre as [Hpre|Hpre]; [exact (Start Hpre Ebf)|exact (After Hpre)].
Qed.

Lemma never_rooted_head : forall post, has_root post = Never -> match post with TCat _ (t0 :: _) => has_root t0 <> Always | _ => True end.
Proof.
  intros [| |sp' [|t0 ts']|] H; try exact I. unfold has_root in *. rewrite has_root_fold_cat in H. rewrite H. discriminate.
Qed.

(* C08: partitioning the postfix again yields an empty prefix and the postfix itself *)
Theorem built_partition_idempotent_r : forall hc e sp ts r text post e',
  build e = BuildOk (TCat sp ts) r -> rep_class (TCat sp ts) = true -> chain_rep_free (TCat sp ts) = true ->
  partition hc e (TCat sp ts) = Ok (PartSome text post e') -> partition hc e' post = Ok (PartSome [] post e').
Proof.
  intros hc e sp ts r text post e' Hb Hrc Hcrf Hp. apply (partition_idempotent hc e sp ts text post e' (built_bounds_ok e _ r Hb) Hp).
  exact (never_rooted_head post (built_postfix_never_rooted_r hc e sp ts r text post e' Hb Hrc Hcrf Hp)).
Qed.
