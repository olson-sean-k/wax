(* PartitionFacts.v -- C05 / C08: partitioning a parsed expression never cuts its text inside a character: the top-level
   tokens tile the expression (each token's span begins where the previous one ends, the first at 0), so the number of
   bytes popped is the start of a token, and unrooting a tree wildcard skips one ASCII character (`/` or the `(` of a flag). *)
From WaxModel Require Import Base Token Fold Parse Query Glob.
From WaxProofs Require Import ParseFacts ParseRel SpanFacts AlgebraFacts AlgebraClosure OwnedFacts BuiltFacts.
Local Open Scope N_scope.

Fixpoint tiled (p : N) (ts : list tok) (q : N) : Prop :=
  match ts with
  | [] => p = q
  | t :: r => fst (tspan t) = p /\ tiled (p + snd (tspan t)) r q
  end.

Lemma Rtokens_tiled : forall tm i ts i', Rtokens tm i ts i' -> tiled (i_pos i) ts (i_pos i').
Proof.
  induction 1 as [tm i|tm i t i1 ts i2 Ht _ IH]; cbn [tiled]; [reflexivity|].
  rewrite (Rtoken_span _ _ _ _ Ht). unfold mk_span. cbn [fst snd]. split; [reflexivity|].
  destruct (Rtoken_ne _ _ _ _ Ht) as [mid [_ [_ Hp]]]. replace (i_pos i + (i_pos i1 - i_pos i)) with (i_pos i1) by lia. exact IH.
Qed.

Lemma p_tokens_tiled : forall f tm i ts i', p_tokens f tm i = POk (ts, i') -> tiled (i_pos i) ts (i_pos i').
Proof. intros f tm i ts i' H. eapply Rtokens_tiled, p_tokens_R. exact H. Qed.

Lemma tiled_middle : forall pre first rest p q, tiled p (pre ++ first :: rest) q ->
  fst (tspan first) = p + sum_spans pre /\ tiled (p + sum_spans pre + snd (tspan first)) rest q.
Proof.
  induction pre as [|t pre IH]; intros first rest p q H; cbn [app tiled sum_spans] in *.
  - rewrite N.add_0_r. destruct H as [Hp Hr]. rewrite Hp. auto.
  - destruct H as [_ Hr]. rewrite N.add_assoc. exact (IH _ _ _ _ Hr).
Qed.

Lemma tiled_starts : forall ts p q, tiled p ts q -> Forall (fun t => p <= fst (tspan t)) ts.
Proof.
  induction ts as [|t ts IH]; intros p q H; [constructor|]. cbn [tiled] in H. destruct H as [Hp Hr]. constructor; [lia|].
  eapply Forall_impl; [|exact (IH _ _ Hr)]. intros a Ha. cbn beta in Ha. lia.
Qed.

Lemma p_wildcard_rooted_head : forall tm i i', p_wildcard tm i = Some (LTree true, i') -> exists r, i_s i = SEP :: r.
Proof.
  intros tm i i' H. apply p_wildcard_inv in H.
  destruct H as [(r & _ & Hl & _)|[(root & i1 & r & Hst & _ & Hl & _)|(c & r & _ & [[_ Hl]|[_ Hl]] & _)]]; try discriminate Hl.
  destruct Hst as [(r0 & Hs & _)|(_ & -> & _)]; [exists r0; exact Hs|discriminate Hl].
Qed.

(* the wildcard parser runs after the flags, which only move at a `(` *)
Lemma Rtoken_rooted_head : forall tm i sp i', Rtoken tm i (TLeaf sp (LTree true)) i' -> exists c0 r, i_s i = c0 :: r /\ utf8_len c0 = 1.
Proof.
  intros tm i sp i' H. apply Rtoken_leaf, Rleaf_wildcard, p_wildcard_rooted_head in H. destruct H as [r Hr].
  destruct (flags_head i) as [E|[r' E]].
  - rewrite E in Hr. exists SEP, r. split; [exact Hr|reflexivity].
  - exists c_lparen, r'. split; [exact E|reflexivity].
Qed.

Definition root_ascii (e : str) (t : tok) : Prop :=
  match t with
  | TLeaf (s, _) (LTree true) => exists pre c0 post, e = pre ++ c0 :: post /\ blen pre = s /\ utf8_len c0 = 1
  | _ => True
  end.

(* what parsing says of a top-level token (`Rtoken_top`) *)
Definition top_ok (e : str) (t : tok) : Prop := span_ok e (tspan t) /\ root_ascii e t /\ 1 <= snd (tspan t).

Lemma Rtoken_top : forall e tm i t i', Rtoken tm i t i' -> at_ e i -> top_ok e t.
Proof.
  intros e tm i t i' Ht Hat. pose proof (Rtoken_span _ _ _ _ Ht) as Esp. pose proof (Rtoken_ne _ _ _ _ Ht) as Hne.
  split; [rewrite Esp; apply mk_span_ok; [exact Hat|apply adv_ne_rel; exact Hne]|]. split.
  - destruct t as [[s n] [| | | | |[|]]| | |]; try exact I. cbn [root_ascii tspan] in *. unfold mk_span in Esp. inversion Esp; subst.
    destruct (Rtoken_rooted_head _ _ _ _ Ht) as [c0 [r [Hr Hc]]]. destruct Hat as [pre [He Hp]].
    exists pre, c0, r. split; [rewrite He, Hr; reflexivity|]. split; [symmetry; exact Hp|exact Hc].
  - rewrite Esp. unfold mk_span. cbn [snd]. destruct Hne as [[|c0 mid] [Hm [_ Hp]]]; [congruence|].
    cbn [blen] in Hp. pose proof (utf8_len_pos c0). lia.
Qed.

Lemma Rtokens_top : forall e tm i ts i', Rtokens tm i ts i' -> at_ e i -> Forall (top_ok e) ts.
Proof.
  induction 1 as [tm i|tm i t i1 ts i2 Ht _ IH]; intros Hat; constructor; [exact (Rtoken_top _ _ _ _ _ Ht Hat)|].
  apply IH. eapply at_adv; [exact Hat|apply adv_ne_rel, (Rtoken_ne _ _ _ _ Ht)].
Qed.

Lemma drop_bytes_0 : forall s, drop_bytes s 0 = Some s.
Proof. intros [|c r]; reflexivity. Qed.

Lemma boundary_drop : forall e n, boundary_of e n -> drop_bytes e n <> None.
Proof. intros e n [pre [post [-> ->]]]. rewrite drop_bytes_app. discriminate. Qed.

Lemma parsed_tokens : forall e sp ts, parse e = ParseOk (TCat sp ts) -> (exists q, tiled 0 ts q) /\ Forall (top_ok e) ts.
Proof.
  intros e sp ts H. apply parse_ok_R in H. destruct H as [[_ H]|(ts0 & i1 & Hts & _ & _ & H)]; [discriminate H|]. inversion H; subst ts0.
  split; [eexists; exact (Rtokens_tiled _ _ _ _ Hts)|exact (Rtokens_top e _ _ _ _ Hts (at_start e))].
Qed.

Lemma blen_split_eq : forall a b c d : str, a ++ b = c ++ d -> blen a = blen c -> a = c /\ b = d.
Proof.
  intros a b c d H Hl. destruct (blen_split_le _ _ _ _ H) as [l [-> ->]]; [lia|].
  rewrite blen_app in Hl. rewrite (blen_zero l) by lia. rewrite app_nil_r. auto.
Qed.

Lemma unroot_cases : forall t,
  unroot t = (t, 0) \/ exists s n, t = TLeaf (s, n) (LTree true) /\ unroot t = (TLeaf (s + 1, n - 1) (LTree false), 1).
Proof. intros [[s n] [| | | | |[|]]| | |]; auto. right. exists s, n. auto. Qed.

Lemma unroot_nonboundary : forall t, is_boundary t = false -> fst (unroot t) = t.
Proof. intros t H. destruct (unroot_cases t) as [->|(s & n & -> & _)]; [reflexivity|discriminate H]. Qed.

Lemma unroot_span : forall e t, top_ok e t ->
  tspan (fst (unroot t)) = (fst (tspan t) + snd (unroot t), snd (tspan t) - snd (unroot t)) /\ span_ok e (tspan (fst (unroot t))).
Proof.
  intros e t [Hsok [Hroot Hlen]]. destruct (unroot_cases t) as [E|(s & n & -> & E)]; rewrite E; cbn [fst snd].
  - rewrite N.add_0_r, N.sub_0_r. split; [destruct (tspan t); reflexivity|exact Hsok].
  - cbn [tspan fst snd root_ascii] in *. split; [reflexivity|]. destruct Hroot as [pre [c0 [post [He [Hpre Hc0]]]]].
    (* the span of the wildcard begins with that character *)
    destruct Hsok as [pre2 [mid [post2 [He2 [Hs2 Hn2]]]]]. cbn [fst snd] in *.
    rewrite He in He2. destruct (blen_split_eq _ _ _ _ He2) as [<- Hm]; [congruence|].
    destruct mid as [|m0 mid']; [cbn in Hn2; lia|]. inversion Hm; subst m0 post.
    exists (pre ++ [c0]), mid', post2. split; [rewrite <- app_assoc; exact He|]. cbn [fst snd]. rewrite blen_app. cbn [blen] in *. lia.
Qed.

Lemma unroot_bounds_ok : forall t, tok_bounds_ok t -> tok_bounds_ok (fst (unroot t)).
Proof. intros [[s n] [| | | | |[|]]| | |] H; exact H. Qed.

Lemma postfix_bounds_ok : forall sp pre first rest,
  tok_bounds_ok (TCat sp (pre ++ first :: rest)) -> tok_bounds_ok (TCat sp (fst (unroot first) :: rest)).
Proof.
  intros sp pre first rest H. rewrite tok_bounds_ok_cat in *. apply Forall_app in H. destruct H as [_ H]. inversion H; subst.
  constructor; [apply unroot_bounds_ok|]; assumption.
Qed.

(* the popped bytes end where a token begins, or one ASCII character later; what remains lies behind them *)
Lemma built_cut : forall e sp pre first rest r, build e = BuildOk (TCat sp (pre ++ first :: rest)) r ->
  boundary_of e (sum_spans pre + snd (unroot first)) /\
  Forall (fun m => span_ok e (tspan m) /\ sum_spans pre + snd (unroot first) <= fst (tspan m)) (fst (unroot first) :: rest).
Proof.
  intros e sp pre first rest r Hb. destruct (parsed_tokens e _ _ (proj1 (build_ok_inv _ _ _ Hb))) as [[q Htile] Htop].
  apply tiled_middle in Htile. destruct Htile as [Hstart Hrest]. rewrite N.add_0_l in Hstart, Hrest.
  apply Forall_app in Htop. destruct Htop as [_ Htop]. inversion Htop as [|? ? Hfirst Hrest']; subst.
  destruct (unroot_span e first Hfirst) as [Esp Hsok]. rewrite <- Hstart.
  assert (Hu : snd (unroot first) <= 1) by (destruct (unroot_cases first) as [E|(s & n & _ & E)]; rewrite E; cbn; lia).
  split; [|constructor].
  - rewrite Esp in Hsok. apply span_ok_iff in Hsok. exact (proj1 Hsok).
  - split; [exact Hsok|rewrite Esp; cbn [fst]; lia].
  - pose proof (tiled_starts _ _ _ Hrest) as Hst. rewrite Forall_forall in *. intros m Hm. destruct (Hrest' m Hm) as [Hs [_ Hl]].
    destruct Hfirst as [_ [_ Hl1]]. split; [exact Hs|]. specialize (Hst m Hm). cbn beta in Hst. lia.
Qed.

Lemma prefix_loop_safe : forall hc ts n head checkpoint, safe (fun _ => True) (prefix_loop hc n ts head checkpoint).
Proof.
  intros hc. induction ts as [|t ts IH]; intros n head checkpoint; cbn [prefix_loop]; [exact I|].
  eapply safe_bind; [apply text_variance_safe|]. intros v _. destruct v; [apply IH|exact I].
Qed.

Lemma invariant_text_prefix_safe : forall hc t, safe (fun _ => True) (invariant_text_prefix hc t).
Proof.
  intros hc t. unfold invariant_text_prefix.
  eapply (safe_bind (fun _ => True)).
  - destruct (concatenation t) as [|t0 r]; [exact I|]. destruct (has_root t0); try exact I.
    eapply safe_bind; [apply text_variance_safe|]. intros; exact I.
  - intros b _. destruct b; [exact I|]. eapply safe_bind; [apply prefix_loop_safe|]. intros; exact I.
Qed.

(* C05 / C08: partitioning a built glob never cuts its expression inside a character (the popped bytes end where a token begins;
   unrooting skips one ASCII character), never fails to re-annotate the postfix, and can only fail by a checked overflow *)
Theorem partition_panics_only_by_overflow : forall hc e t r s, build e = BuildOk t r -> partition hc e t = Panic s -> s = PanicOverflow.
Proof.
  intros hc e t r s Hb. pose proof (built_bounds_ok e t r Hb) as Hbounds. pose proof (invariant_text_prefix_safe hc t) as Hpre.
  unfold partition. destruct (invariant_text_prefix hc t) as [[n text]|s0]; cbn [rbind]; [|intros H; inversion H; subst; exact Hpre].
  destruct t as [s0 l|s0 bs|sp ts|s0 b lo hi].
  1,2,4: destruct (n =? 0); [rewrite (fold_map_respan _ _ Hbounds); cbn [rbind sum_spans]|discriminate];
    destruct (drop_bytes e (0 + 0)) eqn:Ed; [discriminate|]; destruct e; discriminate.
  destruct (N.of_nat (length ts) <=? n); [discriminate|].
  destruct (skipn (N.to_nat n) ts) as [|first rest] eqn:Es; [discriminate|].
  rewrite <- (firstn_skipn (N.to_nat n) ts), Es in Hb, Hbounds.
  pose proof (postfix_bounds_ok _ _ _ _ Hbounds) as Hbp. destruct (built_cut _ _ _ _ _ _ Hb) as [Hbd _].
  destruct (unroot first) as [first' u]. cbn [fst snd] in Hbp, Hbd. rewrite (fold_map_respan _ _ Hbp). cbn [rbind].
  pose proof (boundary_drop _ _ Hbd) as Hd.
  destruct (drop_bytes e _); [discriminate|congruence].
Qed.
