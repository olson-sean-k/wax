(* DepthRooted.v -- C10 with the rootedness condition stated through the query has_root, as in the property's quantifier: when the
   root query of a tree is certain, its verdict decides how every expansion begins ([root_expansions_solid], for the trees none
   of whose subtrees expands to nothing; [root_expansions] is the case without repetitions). *)
From WaxModel Require Import Base Token Spec Variance Fold.
From WaxProofs Require Import SpecFacts AlgebraFacts AlgebraClosure FuelFacts DepthAltFacts AdjacencyFacts RuleAdjFacts.
Local Open Scope N_scope.

Definition hd_rooting (x : list leaf) : bool := match x with a :: _ => leaf_is_rooting a | [] => false end.

Lemma certain_branch : forall bs w bb wb,
  reduce_pure when_certainty (flat_map (fun b => opt_list (has_root_fold b)) bs) = Some w -> w <> Sometimes ->
  In bb bs -> has_root_fold bb = Some wb -> wb = w.
Proof.
  intros bs w bb wb Hw Hns Hin Hwb.
  assert (Hinw : In wb (flat_map (fun b => opt_list (has_root_fold b)) bs)) by (apply in_flat_map; exists bb; split; [exact Hin|rewrite Hwb; left; reflexivity]).
  destruct (flat_map (fun b => opt_list (has_root_fold b)) bs) as [|a l]; [contradiction|]. cbn [reduce_pure] in Hw. injection Hw as Hfold.
  destruct (certainty_fold l a w Hfold Hns) as [Ha Hl].
  destruct Hinw as [E|Hinl]; [congruence|]. rewrite Forall_forall in Hl. exact (Hl wb Hinl).
Qed.

(* a repetition written out at least once has a lower bound, so the root query passes the verdict of its body on *)
Lemma has_root_fold_required : forall sp b lo hi, 1 <= lo -> (match hi with Some h => lo <= h | None => True end) ->
  has_root_fold (TRep sp b lo hi) = has_root_fold b.
Proof.
  intros sp b lo hi Hlo Hhi. cbn [has_root_fold]. pose proof (nr_lower_view (rep_range lo hi)) as V.
  unfold rep_range in V. rewrite (proj1 (fco_sorted lo hi Hhi)) in V.
  destruct (has_root_fold b); [|reflexivity]. destruct (nr_lower _); try reflexivity. cbn [lower_usize] in V. lia.
Qed.

Lemma hd_rooting_app : forall x y, x <> [] -> hd_rooting (x ++ y) = hd_rooting x.
Proof. intros [|a x] y H; [congruence|reflexivity]. Qed.

(* the verdict of the root query decides how every expansion begins: in a concatenation and in a repetition the first member or copy
   decides, since its expansion is not empty and the query passes its verdict on *)
Lemma root_expansions_solid : forall t, tok_bounds_ok t -> nonempty_branches t = true -> solid t ->
  forall w, has_root_fold t = Some w -> w <> Sometimes ->
  forall x, Expands t x -> hd_rooting x = (match w with Always => true | _ => false end).
Proof.
  induction t as [t IH] using tok_children_ind. intros Hbd Hn Hso w Hw Hns x Hx.
  pose proof (fun c Hin => IH c Hin (bounds_ok_child t c Hbd Hin) (nonempty_child t c Hn Hin) (solid_child t c Hso Hin)) as Hc.
  assert (First : forall c x0 rest, In c (children t) -> has_root_fold c = Some w -> Expands c x0 ->
    hd_rooting (concat (x0 :: rest)) = (match w with Always => true | _ => false end)).
  { intros c x0 rest Hin Hwc Hx0. cbn [concat]. rewrite hd_rooting_app by exact (solid_nonempty c x0 (solid_child t c Hso Hin) Hx0).
    exact (Hc c Hin w Hwc Hns x0 Hx0). }
  destruct t as [sp l|sp bs|sp ts|sp b lo hi]; cbn [children] in *.
  - inversion Hx; subst. inversion Hw; subst. cbn [hd_rooting]. destruct (leaf_is_rooting l); reflexivity.
  - apply expands_alt in Hx. destruct Hx as [bb [Hin Hxb]]. cbn [has_root_fold] in Hw.
    destruct (has_root_fold_some bb (nonempty_child _ _ Hn Hin)) as [wb Hwb]. pose proof (certain_branch bs w bb wb Hw Hns Hin Hwb). subst wb.
    exact (Hc bb Hin w Hwb Hns x Hxb).
  - inversion Hx as [| |sp0 ts0 xs HF|]; subst. destruct HF as [|t0 x0 ts' xs' Hx0 HF']; [discriminate|]. rewrite has_root_fold_cat in Hw.
    exact (First t0 x0 xs' (or_introl eq_refl) Hw Hx0).
  - pose proof (Hso _ (sub_refl _)) as Hf. cbn [fnull] in Hf. apply orb_false_iff in Hf. destruct Hf as [Hlo _]. apply N.eqb_neq in Hlo.
    destruct Hbd as [_ [_ Hbh]]. rewrite has_root_fold_required in Hw; [|lia|destruct hi; [exact (proj1 Hbh)|exact I]].
    inversion Hx as [| | |sp0 b0 lo0 hi0 xs Hb HF]; subst. destruct xs as [|y ys]; [destruct Hb as [Hb _]; cbn in Hb; lia|].
    inversion HF as [|? ? Hy _]; subst. exact (First b y ys (or_introl eq_refl) Hw Hy).
Qed.

Lemma root_expansions : forall t, nonempty_branches t = true -> rep_free t = true -> forall w, has_root_fold t = Some w -> w <> Sometimes ->
  forall x, Expands t x -> hd_rooting x = (match w with Always => true | _ => false end).
Proof. intros t Hn Hr. exact (root_expansions_solid t (rep_free_bounds_ok t Hr) Hn (rep_free_solid t Hn Hr)). Qed.
