(* ExhaustFacts.v -- C09 on a class wider than that of `SpecFacts.ends_tree_exhaustive`: every expansion ends with a tree wildcard
   that is followed only by zero-or-more wildcards separated by separators (`**`, `**/*`, `**/*/*`, ...): whatever such a pattern
   matches, it matches everything beneath it - the tree wildcard absorbs one more component and the `*`s shift by one.
   Then the vocabulary of flat patterns (concatenations of leaves), on whose tokens that class is `open_tail`. *)
From WaxModel Require Import Base Token Spec.
From WaxProofs Require Import SpecFacts EncodeLang DepthFacts.

Section Exhaust.
Variable orbit : char -> list char.
Notation FlatMatch := (Spec.FlatMatch orbit).
Notation Lang := (Spec.Lang orbit).

(* `*`, `*/*`, `*/*/*`, ... *)
Inductive ztail : list leaf -> Prop :=
| zt_one : forall lz, ztail [LZom lz]
| zt_more : forall lz x, ztail x -> ztail (LZom lz :: LSep :: x).

Lemma ztail_nonempty : forall x, ztail x -> x <> [].
Proof. intros x H. inversion H; discriminate. Qed.

(* shifting by one component: what matched v now matches the rest of v ++ "/" ++ z after its first component *)
Lemma ztail_shift : forall x, ztail x -> forall f l v z, FlatMatch f l x v -> nosep z = true ->
  exists c0 vnew, nosep c0 = true /\ v ++ SEP :: z = c0 ++ SEP :: vnew /\ FlatMatch f l x vnew.
Proof.
  intros x H. induction H as [lz|lz x Hx IH]; intros f l v z Hm Hz.
  - apply flatmatch_single in Hm. cbn [Spec.leaf_piece] in Hm. exists v, z. split; [exact Hm|]. split; [reflexivity|].
    apply flatmatch_single. exact Hz.
  - inversion Hm as [|? ? ? ? u0 v0 Hp0 Hr0]; subst. cbn [Spec.leaf_piece] in Hp0.
    inversion Hr0 as [|? ? ? ? u1 v1 Hp1 Hr1]; subst. cbn [Spec.leaf_piece] in Hp1. subst u1.
    destruct (IH false l v1 z Hr1 Hz) as [c1 [vnew [Hc1 [E Hn]]]].
    exists u0, (c1 ++ SEP :: vnew). split; [exact Hp0|]. split.
    + rewrite <- !app_assoc. cbn [app]. rewrite E. reflexivity.
    + change (c1 ++ SEP :: vnew) with (c1 ++ [SEP] ++ vnew). constructor; [exact Hc1|]. constructor; [reflexivity|]. exact Hn.
Qed.

Lemma tree_piece_absorb : forall f root u c0, tree_piece f false root u = true -> tree_piece f false root (u ++ c0 ++ [SEP]) = true.
Proof.
  intros f root u c0 H. unfold tree_piece in *.
  assert (Hends : ends_sep (u ++ c0 ++ [SEP]) = true) by (rewrite app_assoc; apply ends_sep_snoc).
  rewrite Hends. cbn [andb orb negb] in *. rewrite andb_true_r, orb_false_r in *.
  apply andb_prop in H. destruct H as [Hl _].
  destruct (f && negb root) eqn:E; [reflexivity|]. cbn [orb] in *.
  apply starts_sep_app. exact Hl.
Qed.

Lemma flatmatch_extend_tree_ztail : forall x f r suf w z, ztail suf -> nosep z = true ->
  FlatMatch f true (x ++ LTree r :: suf) w -> FlatMatch f true (x ++ LTree r :: suf) (w ++ SEP :: z).
Proof.
  induction x as [|a x IH]; intros f r suf w z Hs Hz H.
  - cbn [app] in *. inversion H as [|? ? ? ? u v Hp Hrest]; subst.
    destruct (ztail_shift suf Hs false true v z Hrest Hz) as [c0 [vnew [Hc0 [E Hn]]]].
    assert (Hnil : is_nil suf = false) by (destruct suf; [exfalso; eapply ztail_nonempty; [exact Hs|reflexivity]|reflexivity]).
    rewrite Hnil in Hp. cbn [andb Spec.leaf_piece] in Hp.
    rewrite <- app_assoc, E.
    replace (u ++ c0 ++ SEP :: vnew) with ((u ++ c0 ++ [SEP]) ++ vnew) by (rewrite <- !app_assoc; reflexivity).
    constructor; [|exact Hn]. rewrite Hnil. cbn [andb Spec.leaf_piece]. apply tree_piece_absorb; exact Hp.
  - cbn [app] in *. inversion H as [|? ? ? ? u v Hp Hrest]; subst. rewrite <- app_assoc. constructor.
    + destruct (x ++ LTree r :: suf) eqn:E; [destruct x; discriminate|]. exact Hp.
    + apply IH; assumption.
Qed.

End Exhaust.

Definition is_leaf (t : tok) : bool := match t with TLeaf _ _ => true | _ => false end.

Inductive ztailT : list tok -> Prop :=
| ztT_one : forall sp lz, ztailT [TLeaf sp (LZom lz)]
| ztT_more : forall sp lz sp' x, ztailT x -> ztailT (TLeaf sp (LZom lz) :: TLeaf sp' LSep :: x).

Definition open_tail (ts : list tok) : Prop :=
  exists pre sp r suf, ts = pre ++ TLeaf sp (LTree r) :: suf /\ (suf = [] \/ ztailT suf).

Lemma expands_leaves : forall ts xs, forallb is_leaf ts = true -> Forall2 Expands ts xs -> concat xs = map leaf_of ts.
Proof.
  intros ts xs H HF. induction HF as [|t x ts xs Hx _ IH]; [reflexivity|]. cbn [forallb] in H. apply andb_prop in H. destruct H as [Ht Hts].
  destruct t as [sp l| | |]; try discriminate. inversion Hx; subst. cbn [concat map leaf_of app]. rewrite (IH Hts). reflexivity.
Qed.

Definition tree_tok (t : tok) : bool := match t with TLeaf _ (LTree _) => true | _ => false end.

Definition last_not_sep (l : list tok) : Prop := match last_opt l with Some t => is_sep t = false | None => True end.

Lemma last_opt_app_r : forall {A} (p : list A) l, l <> [] -> last_opt (p ++ l) = last_opt l.
Proof.
  induction p as [|a p IH]; intros l H; [reflexivity|]. cbn [app]. destruct (p ++ l) eqn:E; [destruct p; [cbn in E; congruence|discriminate]|].
  rewrite <- E. cbn [last_opt]. rewrite E. rewrite <- E. apply IH. exact H.
Qed.

