(* FuelFacts.v -- sizes of lists of trees ([csize]) and the descendant relation [sub] with its induction principle.
   The level-order enumeration of a tree (Token::walk): its fuel is adequate, giving it more never changes its result
   ([bfs_levels_enough]), and it lists exactly the descendants ([bfs_reaches], [bfs_sub]); hence what the rule checker
   checks of the enumeration holds at every node of a built tree (C06: [built_bounds_everywhere],
   [built_no_adjacent_boundary_everywhere]).  The measure [qsz] of the branch rules' queue and one step [bstep] of the
   fold of a queue item (the fuel of that loop is adequate as well: RuleAdjFacts.branch_loop_enough). *)
From WaxModel Require Import Base Token Rule.
From WaxProofs Require Import RuleFacts.
Local Open Scope nat_scope.

Definition csize (c : list tok) : nat := fold_right (fun t a => tsize t + a) 0 c.

Lemma tsize_pos : forall t, 1 <= tsize t.
Proof. destruct t; cbn; lia. Qed.

Lemma csize_cons : forall t c, csize (t :: c) = tsize t + csize c.
Proof. reflexivity. Qed.

Lemma csize_app : forall a b, csize (a ++ b) = csize a + csize b.
Proof. induction a as [|t a IH]; intros b; [reflexivity|]. cbn [app]. rewrite !csize_cons, IH. lia. Qed.

Lemma csize_nonempty : forall c, c <> [] -> 1 <= csize c.
Proof. intros [|t c] H; [congruence|]. rewrite csize_cons. pose proof (tsize_pos t). lia. Qed.

Lemma csize_children : forall t, csize (children t) < tsize t.
Proof.
  destruct t as [sp l|sp bs|sp ts|sp b lo hi]; cbn [children tsize csize fold_right]; try lia.
Qed.

Lemma csize_concatenation : forall t, csize (concatenation t) <= tsize t.
Proof.
  destruct t as [sp l|sp bs|sp ts|sp b lo hi]; cbn [concatenation csize fold_right tsize]; try lia.
Qed.

Lemma csize_flat_children : forall level, level <> [] -> csize (flat_map children level) < csize level.
Proof.
  induction level as [|t level IH]; intros H; [congruence|]. cbn [flat_map]. rewrite csize_app, csize_cons.
  pose proof (csize_children t). destruct level as [|t' level']; [cbn in *; lia|]. specialize (IH ltac:(discriminate)). lia.
Qed.

Lemma bfs_levels_enough : forall f level k, csize level <= f -> bfs_levels (f + k) level = bfs_levels f level.
Proof.
  induction f as [|f IH]; intros level k H.
  - destruct level as [|t level]; [destruct k; reflexivity|]. rewrite csize_cons in H. pose proof (tsize_pos t). lia.
  - cbn [Nat.add bfs_levels]. destruct level as [|t level]; [reflexivity|]. f_equal. apply IH.
    pose proof (csize_flat_children (t :: level) ltac:(discriminate)). lia.
Qed.

Corollary bfs_enough : forall t k, bfs_levels (tsize t + k) [t] = bfs t.
Proof. intros t k. apply bfs_levels_enough. cbn [csize fold_right]. lia. Qed.

Inductive sub : tok -> tok -> Prop :=     (* [sub x t]: x is t or one of its descendants *)
| sub_refl : forall t, sub t t
| sub_child : forall x c t, In c (children t) -> sub x c -> sub x t.

Lemma sub_closed : forall C : tok -> Prop, (forall t c, C t -> In c (children t) -> C c) -> forall c t, sub c t -> C t -> C c.
Proof. intros C H c t Hs. induction Hs as [t|x c t Hin _ IH]; intros Ht; [exact Ht|]. exact (IH (H t c Ht Hin)). Qed.

Lemma sub_trans : forall a b c, sub a b -> sub b c -> sub a c.
Proof. intros a b c Hab Hbc. induction Hbc as [b|b c0 t Hin _ IH]; [exact Hab|]. exact (sub_child a c0 t Hin (IH Hab)). Qed.

Lemma tok_children_ind : forall P : tok -> Prop, (forall t, (forall c, In c (children t) -> P c) -> P t) -> forall t, P t.
Proof.
  intros P H. induction t as [sp l|sp bs IH|sp ts IH|sp b lo hi IH] using tok_ind'; apply H; cbn [children].
  - intros c [].
  - apply Forall_forall. exact IH.
  - apply Forall_forall. exact IH.
  - intros c [<-|[]]. exact IH.
Qed.

Lemma bfs_levels_reaches : forall x t, sub x t -> forall f level, In t level -> csize level <= f -> In x (bfs_levels f level).
Proof.
  intros x t H. induction H as [t|x c t Hc _ IH]; intros f level Hin Hf.
  - destruct f as [|f]; [exact Hin|]. cbn [bfs_levels]. destruct level; [contradiction|]. apply in_or_app. left. exact Hin.
  - destruct level as [|t0 level0] eqn:El; [contradiction|]. rewrite <- El in *.
    assert (Hne : level <> []) by (rewrite El; discriminate).
    pose proof (csize_flat_children level Hne) as Hlt.
    destruct f as [|f]; [pose proof (csize_nonempty level Hne); lia|].
    cbn [bfs_levels]. rewrite El. rewrite <- El. apply in_or_app. right. apply IH; [|lia].
    apply in_flat_map. exists t. split; assumption.
Qed.

Theorem bfs_reaches : forall x t, sub x t -> In x (bfs t).
Proof. intros x t H. unfold bfs. eapply bfs_levels_reaches; [exact H|left; reflexivity|cbn; lia]. Qed.

Lemma bfs_levels_sub : forall f level x, In x (bfs_levels f level) -> exists t0, In t0 level /\ sub x t0.
Proof.
  induction f as [|f IH]; intros level x H; cbn [bfs_levels] in H.
  - exists x. split; [exact H|constructor].
  - destruct level as [|t level']; [contradiction|]. apply in_app_or in H. destruct H as [H|H]; [exists x; split; [exact H|constructor]|].
    destruct (IH _ _ H) as [c [Hc Hs]]. apply in_flat_map in Hc. destruct Hc as [t0 [Ht0 Hc]]. exists t0. split; [exact Ht0|]. eapply sub_child; eassumption.
Qed.

Lemma bfs_sub : forall t x, In x (bfs t) -> sub x t.
Proof. intros t x H. destruct (bfs_levels_sub _ _ _ H) as [t0 [[<-|[]] Hs]]. exact Hs. Qed.

Theorem built_bounds_everywhere : forall t, check t = Ok None -> forall x, sub x t -> bad_bounds x = false.
Proof.
  intros t H x Hx. pose proof (check_bounds t H) as Hall. rewrite Forall_forall in Hall. apply Hall. apply bfs_reaches. exact Hx.
Qed.

Theorem built_no_adjacent_boundary_everywhere : forall t, check t = Ok None ->
  forall sp ts, sub (TCat sp ts) t -> adjacent_boundary ts = None.
Proof.
  intros t H sp ts Hx. pose proof (check_boundary t H) as Hall. rewrite Forall_forall in Hall.
  exact (Hall _ (bfs_reaches _ _ Hx)).
Qed.

Definition qsz (q : list (outer * tok)) : nat := fold_right (fun x a => tsize (snd x) + a) 0 q.

Lemma qsz_cons : forall o t q, qsz ((o, t) :: q) = tsize t + qsz q.
Proof. reflexivity. Qed.

Lemma qsz_app : forall a b, qsz (a ++ b) = qsz a + qsz b.
Proof. induction a as [|[o t] a IH]; intros b; [reflexivity|]. cbn [app]. rewrite !qsz_cons, IH. lia. Qed.

Lemma qsz_map : forall o bs, qsz (map (fun b => (o, b)) bs) = csize bs.
Proof. intros o bs. induction bs as [|b bs IH]; [reflexivity|]. cbn [map]. rewrite qsz_cons, csize_cons, IH. reflexivity. Qed.

Definition mid (x : option tok * tok * option tok) : tok := snd (fst x).

Lemma adjacent_aux_mid : forall ts l, map mid (adjacent_aux l ts) = ts.
Proof. induction ts as [|t ts IH]; intros l; [reflexivity|]. cbn [adjacent_aux map mid fst snd]. rewrite IH. reflexivity. Qed.

(* one step of the fold of [branch_item] *)
Definition bstep (parent : outer) (acc : option (rule_kind * span) * list (outer * tok)) (x : option tok * tok * option tok) :=
  let '(err, q) := acc in
  let '(l, t, r) := x in
  match t with
  | TAlt sp bs =>
      let o := outer_or parent l r in
      let e := first_some_l
                 (fun b => match terminals_of (concatenation b) with
                           | Some tm => opt_first (check_branch tm o) (check_alternation tm o)
                           | None => None
                           end) bs in
      (opt_first err (option_map (fun k => (k, sp)) e), q ++ map (fun b => (o, b)) bs)
  | TRep sp b lo hi =>
      let o := outer_or parent l r in
      let e := match terminals_of (concatenation b) with
               | Some tm => opt_first (check_branch tm o) (check_repetition tm o lo hi)
               | None => None
               end in
      (opt_first err (option_map (fun k => (k, sp)) e), q ++ [(o, b)])
  | _ => acc
  end.

Lemma branch_item_eq : forall parent token,
  branch_item (parent, token) = fold_left (bstep parent) (adjacent (concatenation token)) (None, []).
Proof. reflexivity. Qed.
