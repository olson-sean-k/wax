(* ExhaustOptFacts.v -- C09 with optional repetitions: an `Always` verdict is sound also when a repetition may be written out zero times,
   provided it is bounded above and its body holds no tree wildcard (`<[0-9]:0,3>`, `<a/:0,2>b/**`) - the known class
   optional_repetition is about optional repetitions whose own term is unbounded (`<a/**:0,1>*`); here the term of the repetition has an
   upper bound in every member, so it promises nothing, whether it is written out or not.  The class `frq` of this file contains the
   class `frp` of ExhaustRepFacts (`frp_frq`: the case of a repetition in the smaller one is the first disjunct of its case in the larger),
   so the theorems for `frp` are instances. *)
From WaxModel Require Import Base Token Spec Variance Fold Glob.
From WaxProofs Require Import SpecFacts DepthTreeFacts DepthAltFacts ParseShape RuleZomFacts AlgebraClosure ExhaustAltFacts ExhaustRepFacts.
Local Open Scope nat_scope.

(* terms without an unbounded member *)
Definition nov (s : sterm) : Prop := ~ vform (snd s).
Definition btn (b : bterm) : Prop := bt_ok b /\ members b <> [] /\ Forall nov (members b).

Lemma safe_and : forall {A} (P Q : A -> Prop) r, safe P r -> (forall v, r = Ok v -> P v -> Q v) -> safe (fun v => P v /\ Q v) r.
Proof. intros A P Q [v|s] H HQ; cbn [safe] in *; [split; [exact H|exact (HQ v eq_refl H)]|exact H]. Qed.

Lemma btn_conj : forall x y, btn x -> btn y -> safe btn (bterm_conj x y).
Proof.
  intros x y [Hx [Nx Vx]] [Hy [Ny Vy]]. unfold btn. apply safe_and; [apply bterm_conj_safe; assumption|]. intros c Hc Hokc. split.
  - destruct (nonempty_in _ Nx) as [a Ha]. destruct (nonempty_in _ Ny) as [b Hb]. destruct (bterm_conj_members _ _ _ a b Hc Ha Hb) as [s [_ Hs]]. intros E. rewrite E in Hs. contradiction.
  - apply Forall_forall. intros m Hm. destruct (bterm_conj_members_inv _ _ _ Hc m Hm) as [a [b [Ha [Hb Hab]]]].
    rewrite Forall_forall in Vx, Vy. intros Hv. destruct (proj2 (sterm_conj_keeps_upper a b m (bt_ok_members _ Hx a Ha) (bt_ok_members _ Hy b Hb) Hab) Hv) as [H1|H1]; [exact (Vx a Ha H1)|exact (Vy b Hb H1)].
Qed.

Lemma btn_disj : forall x y, btn x -> btn y -> btn (bterm_disj x y).
Proof.
  intros x y [Hx [Nx Vx]] [Hy [Ny Vy]]. split; [apply bterm_disj_ok; assumption|]. split.
  - destruct (nonempty_in _ Nx) as [a Ha]. intros E. assert (Hin : In a (members (bterm_disj x y))) by (apply bterm_disj_members; left; exact Ha). rewrite E in Hin. contradiction.
  - apply Forall_forall. intros m Hm. apply bterm_disj_members in Hm. rewrite Forall_forall in Vx, Vy. destruct Hm as [Hm|Hm]; [exact (Vx m Hm)|exact (Vy m Hm)].
Qed.

Lemma btn_product : forall x r h, btn x -> nv_ok r -> hi_of r = Some h -> safe btn (bterm_product x r).
Proof.
  intros x r h [Hx [Nx Vx]] Hr Hh. unfold btn. apply safe_and; [apply bterm_product_safe; assumption|]. intros y Hy Hoky. split.
  - destruct (nonempty_in _ Nx) as [a Ha]. destruct (bterm_product_members _ _ _ Hy a Ha) as [m' [Hm' _]]. intros E. rewrite E in Hm'. contradiction.
  - apply Forall_forall. intros m' Hm'. destruct (bterm_product_members_inv _ _ _ Hy m' Hm') as [m [Hm Hp]]. rewrite Forall_forall in Vx.
    intros Hv. exact (Vx m Hm (sterm_product_keeps_upper m r m' h Hh Hp Hv)).
Qed.

Lemma btn_zero : btn bterm_zero.
Proof. split; [exact I|]. split; [discriminate|]. constructor; [intros []|constructor]. Qed.

Lemma btn_leaf : forall l, is_tree_leaf l = false -> btn (depth_leaf l).
Proof. intros l H. split; [apply depth_leaf_ok|]. rewrite depth_leaf_sterm. split; [discriminate|]. constructor; [destruct l; try discriminate; intros []|constructor]. Qed.

Lemma btn_covered : forall b X, btn b -> Forall st_ok (members b) /\ covers b X.
Proof.
  intros b X [Hok [Hne Hnov]]. split; [apply Forall_forall; exact (bt_ok_members b Hok)|]. intros x _.
  destruct (nonempty_in _ Hne) as [m Hm]. exists m. split; [exact Hm|]. intros Hv. rewrite Forall_forall in Hnov. destruct (Hnov m Hm Hv).
Qed.

Fixpoint tree_free (t : tok) : bool :=
  match t with
  | TLeaf _ l => negb (is_tree_leaf l)
  | TAlt _ bs => forallb tree_free bs
  | TCat _ ts => forallb tree_free ts
  | TRep _ b _ _ => tree_free b
  end.

Definition is_some (o : option N) : bool := match o with Some _ => true | None => false end.

(* repetitions: required ones as in ExhaustRepFacts; optional ones bounded above with a body that holds no tree wildcard *)
Fixpoint frq (t : tok) : bool :=
  match t with
  | TLeaf _ _ => true
  | TAlt _ bs => forallb (fun b => is_branch b && frq b) bs
  | TCat _ ts => forallb frq ts
  | TRep _ b lo hi => is_branch b && frq b &&
      (((1 <=? lo)%N && (is_some hi || bounded_branch b)) || ((lo =? 0)%N && is_some hi && tree_free b))
  end.

Lemma frq_alt : forall sp bs, frq (TAlt sp bs) = true -> forall b, In b bs -> is_branch b = true /\ frq b = true.
Proof. intros sp bs H b Hb. cbn [frq] in H. rewrite forallb_forall in H. apply andb_prop. exact (H b Hb). Qed.

Lemma frq_cat : forall sp ts, frq (TCat sp ts) = true -> forall m, In m ts -> frq m = true.
Proof. intros sp ts H m Hm. cbn [frq] in H. rewrite forallb_forall in H. exact (H m Hm). Qed.

Lemma frq_rep : forall sp b lo hi, frq (TRep sp b lo hi) = true -> is_branch b = true /\ frq b = true /\
  ((1 <= lo)%N /\ (hi = None -> bounded_branch b = true) \/ (exists h, hi = Some h) /\ tree_free b = true).
Proof.
  intros sp b lo hi H. cbn [frq] in H. apply andb_prop in H. destruct H as [H Hcl]. apply andb_prop in H. destruct H as [Hbr Hb].
  split; [exact Hbr|]. split; [exact Hb|]. apply orb_prop in Hcl. destruct Hcl as [Hc|Hc]; apply andb_prop in Hc; destruct Hc as [Hc1 Hc2].
  - left. split; [apply N.leb_le; exact Hc1|]. intros ->. exact Hc2.
  - right. apply andb_prop in Hc1. destruct hi as [h|]; [|destruct Hc1; discriminate]. split; [exists h; reflexivity|exact Hc2].
Qed.

Lemma frp_frq : forall t, frp t = true -> frq t = true.
Proof.
  induction t as [sp l|sp bs IH|sp ts IH|sp b lo hi IH] using tok_ind'; intros H; [reflexivity|..]; cbn [frq].
  - rewrite Forall_forall in IH. apply forallb_forall. intros b Hb. destruct (frp_alt sp bs H b Hb) as [Hbr Hf]. rewrite Hbr, (IH b Hb Hf). reflexivity.
  - rewrite Forall_forall in IH. apply forallb_forall. intros m Hm. exact (IH m Hm (frp_cat sp ts H m Hm)).
  - destruct (frp_rep sp b lo hi H) as [Hbr [Hlo [Hhi Hb]]]. apply N.leb_le in Hlo. rewrite Hbr, (IH Hb), Hlo.
    destruct hi; [reflexivity|]. cbn [is_some orb andb]. rewrite (Hhi eq_refl). reflexivity.
Qed.

Lemma frq_rep_free : forall sp b lo hi, frq (TRep sp b lo hi) = true -> frq b = true /\ free_rep b lo hi = false.
Proof.
  intros sp b lo hi H. destruct (frq_rep sp b lo hi H) as [_ [Hb [[Hlo _]|[[h ->] _]]]]; (split; [exact Hb|]).
  - exact (required_not_free b lo hi Hlo).
  - unfold free_rep. apply andb_false_r.
Qed.

Lemma frq_rep_hi : forall sp b lo hi, frq (TRep sp b lo hi) = true -> bounded_branch b = false -> exists h, hi = Some h.
Proof.
  intros sp b lo hi H Ebb. destruct (frq_rep sp b lo hi H) as [_ [_ [[_ Hhi]|[Hhi _]]]]; [|exact Hhi].
  destruct hi as [h|]; [exists h; reflexivity|]. rewrite (Hhi eq_refl) in Ebb. discriminate.
Qed.

(* the fold of a tree without tree wildcards has no unbounded member *)
Lemma tf_fold : forall t, frq t = true -> tree_free t = true -> safe (opt_ok btn) (exh_fold t).
Proof.
  intros t Hq Ht. apply (exh_fold_pres btn (fun t => frq t = true /\ tree_free t = true)); [| | | |exact btn_zero|exact btn_disj|exact btn_conj| |auto].
  - intros sp bs [Hq' Ht']. apply Forall_forall. intros b Hb. split; [exact (proj2 (frq_alt sp bs Hq' b Hb))|exact (proj1 (forallb_forall _ _) Ht' b Hb)].
  - intros sp ts [Hq' Ht']. apply Forall_forall. intros m Hm. split; [exact (frq_cat sp ts Hq' m Hm)|exact (proj1 (forallb_forall _ _) Ht' m Hm)].
  - intros sp b lo hi [Hq' Ht']. split; [exact (proj1 (proj2 (frq_rep sp b lo hi Hq')))|exact Ht'].
  - intros sp l [_ Ht']. apply btn_leaf. apply negb_true_iff. exact Ht'.
  - intros sp b lo hi x [Hq' _] Ebb _ Hx. destruct (frq_rep_hi sp b lo hi Hq' Ebb) as [h ->].
    exact (btn_product x _ (N.max lo h) Hx (fco_ok lo (Some h)) (rep_range_hi lo h)).
Qed.

(* a token taken before the last one expands to separators, zero-or-more and tree wildcards only *)
Definition Fz (t : tok) : Prop := free_tok t = true -> forall x, Expands t x -> forallb szt x = true.

Lemma Cov_alt : forall sp bs, negb (is_nil bs) = true -> Forall (fun b => is_branch b = true /\ Cov b) bs -> Cov (TAlt sp bs).
Proof.
  intros sp bs Hnil Hall. apply Cov_covered. apply (covered_alt _ st_ok_keeps_upper sp bs Hnil).
  eapply Forall_impl; [|exact Hall]. intros b [Hb Hc]. split; [exact Hb|apply Cov_covered; exact Hc].
Qed.

Lemma Cov_cat : forall sp ts, negb (is_nil ts) = true -> Forall (fun m => Cov m /\ Fz m) ts -> Cov (TCat sp ts).
Proof.
  intros sp ts Hnil HSm. apply Cov_covered. apply (covered_cat _ st_ok_keeps_upper sp ts Hnil).
  eapply Forall_impl; [|exact HSm]. intros m [Hc Hf]. split; [apply Cov_covered; exact Hc|exact Hf].
Qed.

Theorem frq_covered : forall t, frq t = true -> nonempty_branches t = true -> covered st_ok t.
Proof.
  intros t Hs Hn. apply (class_covered _ st_ok_keeps_upper (fun t => frq t = true)); try assumption.
  - intros sp bs H b Hb. exact (proj2 (frq_alt sp bs H b Hb)).
  - intros sp bs H b Hb. exact (proj1 (frq_alt sp bs H b Hb)).
  - exact frq_cat.
  - exact frq_rep_free.
  - intros sp b lo hi H Hb. destruct (frq_rep sp b lo hi H) as [Hbr [_ [[Hlo Hhi]|[_ Htf]]]]; [exact (covered_rep_required sp b lo hi Hbr Hlo Hhi Hb)|].
    (* optional, bounded above, no tree wildcard in the body: no member of the term is unbounded, so nothing is promised *)
    intros r Hr. pose proof (tf_fold (TRep sp b lo hi) H Htf) as Hbtn. rewrite Hr in Hbtn.
    destruct (exh_fold_rep_inv st_ok sp b lo hi r Hbr Hb Hr) as [xb [_ [->|[_ [y [_ ->]]]]]]; eexists; (split; [reflexivity|exact (btn_covered _ _ Hbtn)]).
Qed.

Theorem frq_always_sound : forall orbit t p z x,
  frq t = true -> nonempty_branches t = true -> is_exhaustive t = Ok Always -> nosep z = true ->
  Expands t x -> chain_ok false x = true -> zchain false x = true -> last_opt x <> Some LSep ->
  FlatMatch orbit true true x p -> FlatMatch orbit true true x (p ++ SEP :: z).
Proof. intros orbit t p z x Hf Hne. exact (covered_always_sound _ orbit t p z x (frq_covered t Hf Hne)). Qed.

(* C09 with repetitions: for every pattern of the class, an `Always` verdict is sound on every expansion that respects the two adjacency
   rules and does not end with a separator (the known class trailing_boundary) *)
Theorem frp_always_sound : forall orbit t p z x,
  frp t = true -> nonempty_branches t = true -> is_exhaustive t = Ok Always -> nosep z = true ->
  Expands t x -> chain_ok false x = true -> zchain false x = true -> last_opt x <> Some LSep ->
  FlatMatch orbit true true x p -> FlatMatch orbit true true x (p ++ SEP :: z).
Proof. intros orbit t p z x Hf. exact (frq_always_sound orbit t p z x (frp_frq t Hf)). Qed.

Theorem frp_always_sound_lang : forall orbit t p z,
  frp t = true -> nonempty_branches t = true -> is_exhaustive t = Ok Always -> nosep z = true ->
  (forall x, Expands t x -> chain_ok false x = true /\ zchain false x = true /\ last_opt x <> Some LSep) ->
  Lang orbit t p -> Lang orbit t (p ++ SEP :: z).
Proof.
  intros orbit t p z Hf Hne He Hz Hall [x [Hx Hm]]. destruct (Hall x Hx) as [Hc [Hzc Hl]]. exists x. split; [exact Hx|].
  exact (frp_always_sound orbit t p z x Hf Hne He Hz Hx Hc Hzc Hl Hm).
Qed.

Theorem built_required_reps_always_sound : forall orbit e t r p z x,
  build e = BuildOk t r -> required_reps t = true -> is_exhaustive t = Ok Always -> nosep z = true ->
  Expands t x -> chain_ok false x = true -> zchain false x = true -> last_opt x <> Some LSep ->
  FlatMatch orbit true true x p -> FlatMatch orbit true true x (p ++ SEP :: z).
Proof.
  intros orbit e t r p z x Hb Hr.
  exact (frp_always_sound orbit t p z x (sh_frp t (built_sh e t r Hb) Hr) (BuiltNonempty.built_nonempty_branches e t r Hb)).
Qed.

(* the class on built globs: the shape conditions are the parser's *)
Fixpoint plain_reps (t : tok) : bool :=
  match t with
  | TLeaf _ _ => true
  | TAlt _ bs => forallb plain_reps bs
  | TCat _ ts => forallb plain_reps ts
  | TRep _ b lo hi => (((1 <=? lo)%N && (is_some hi || bounded_branch b)) || ((lo =? 0)%N && is_some hi && tree_free b)) && plain_reps b
  end.

Lemma sh_frq : forall t, sh t -> plain_reps t = true -> frq t = true.
Proof.
  induction t as [sp l|sp bs IH|sp ts IH|sp b lo hi IH] using tok_ind'; intros Hs Hr; try reflexivity; cbn [sh frq plain_reps] in *.
  - exact (all_sh_shp true is_branch plain_reps frq bs cat_is_branch IH Hs Hr).
  - exact (all_sh_shp false (fun _ => true) plain_reps frq ts (fun _ _ => eq_refl) IH Hs Hr).
  - destruct Hs as [Hc Hsb]. apply andb_prop in Hr. destruct Hr as [Hr Hrb]. rewrite Hr, (IH Hsb Hrb). destruct b; try discriminate; reflexivity.
Qed.

Theorem built_plain_reps_always_sound : forall orbit e t r p z x,
  build e = BuildOk t r -> plain_reps t = true -> is_exhaustive t = Ok Always -> nosep z = true ->
  Expands t x -> chain_ok false x = true -> zchain false x = true -> last_opt x <> Some LSep ->
  FlatMatch orbit true true x p -> FlatMatch orbit true true x (p ++ SEP :: z).
Proof.
  intros orbit e t r p z x Hb Hr.
  exact (frq_always_sound orbit t p z x (sh_frq t (built_sh e t r Hb) Hr) (BuiltNonempty.built_nonempty_branches e t r Hb)).
Qed.
