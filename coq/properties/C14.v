(* C14 -- Walk entries describe their file consistently (model of the path arithmetic on component lists). *)
From WaxModel Require Import Base Walk.
From WaxProofs Require Import WalkFacts.
Local Open Scope nat_scope.

(* the relative segment of an entry of a glob walk is the prefix followed by the path below the walk root: its
   number of components is the pivot plus walkdir's depth *)
Theorem C14_depth_is_components :
  forall prefix e, length (presented prefix true e Filtrate) = length prefix + length (e_path e).
Proof. intros prefix e. cbn [presented]. apply app_length. Qed.
Print Assumptions C14_depth_is_components.

(* a yielded entry's relative segment is matched by the glob (= `C02_yields_only_matches`) *)
Theorem C14_yielded_is_matched :
  forall prefix progs complete e t,
    glob_layer prefix progs complete e t = Keep -> complete (join_path (prefix ++ e_path e)) = true.
Proof. exact glob_layer_keep_matches. Qed.
Print Assumptions C14_yielded_is_matched.
