(* C07 -- Branches compose: alternation is union, repetition is iteration, `any` is union. *)
From WaxModel Require Import Base Token Regex Spec Encode.
From WaxProofs Require Import EncodeFacts.

(* for all inputs: the program of a combinator matches exactly the union of the programs of its patterns *)
Theorem C07_any_is_union :
  forall orbit sp ts w, ts <> [] ->
    (sem orbit (encode (TAlt sp ts)) w <-> exists t, In t ts /\ sem orbit (encode t) w).
Proof. exact any_is_union. Qed.
Print Assumptions C07_any_is_union.

(* an alternation of programs is the union of its branches *)
Theorem C07_alternation_is_union :
  forall orbit rs w, rs <> [] -> (sem orbit (ralt_list rs) w <-> exists r, In r rs /\ sem orbit r w).
Proof. exact sem_ralt_list. Qed.
Print Assumptions C07_alternation_is_union.

(* whether a token is encoded capturing or not (top level vs. nested in a branch) does not change what it matches *)
Theorem C07_grouping_irrelevant :
  forall orbit t cap cap' s e w, sem orbit (enc_tok cap t s e) w <-> sem orbit (enc_tok cap' t s e) w.
Proof. intros orbit t cap cap' s e w. exact (enc_tok_cap orbit t cap cap' s e w). Qed.
Print Assumptions C07_grouping_irrelevant.

From WaxProofs Require Import ComposeFacts.

(* at the level of the documented language, for every token tree: an alternation matches exactly what some branch matches;
   a repetition matches exactly what its body written out a permitted number of times matches; and both hold in place,
   inside any surrounding concatenation (flat positions of tree wildcards included: the language only depends on the flat
   sequence of leaves) *)
Theorem C07_alternation_is_union_of_branches : forall orbit sp bs w, Lang orbit (TAlt sp bs) w <-> exists b, In b bs /\ Lang orbit b w.
Proof. exact lang_alt. Qed.
Print Assumptions C07_alternation_is_union_of_branches.

Theorem C07_repetition_is_iteration : forall orbit sp sp' b lo hi w,
  Lang orbit (TRep sp b lo hi) w <-> exists n, in_bounds n lo hi /\ Lang orbit (TCat sp' (repeat b n)) w.
Proof. intros orbit sp sp' b lo hi. apply lang_expands_as, expands_as_rep. Qed.
Print Assumptions C07_repetition_is_iteration.

Theorem C07_alternation_composes_in_place : forall orbit sp sp' pre bs post w,
  Lang orbit (TCat sp (pre ++ TAlt sp' bs :: post)) w <-> exists b, In b bs /\ Lang orbit (TCat sp (pre ++ b :: post)) w.
Proof. intros orbit sp sp' pre bs post. apply lang_expands_as, expands_as_in_cat, expands_as_alt. Qed.
Print Assumptions C07_alternation_composes_in_place.

Theorem C07_repetition_composes_in_place : forall orbit sp sp' sp'' pre b lo hi post w,
  Lang orbit (TCat sp (pre ++ TRep sp' b lo hi :: post)) w <->
  exists n, in_bounds n lo hi /\ Lang orbit (TCat sp (pre ++ TCat sp'' (repeat b n) :: post)) w.
Proof. intros orbit sp sp' sp'' pre b lo hi post. apply lang_expands_as, expands_as_in_cat, expands_as_rep. Qed.
Print Assumptions C07_repetition_composes_in_place.

From WaxModel Require Import Query Glob.
From WaxProofs Require Import AlgebraFacts OwnedFacts BuiltFacts.

(* the combinator itself, at the level of the documented language: the tree that `any` builds from its patterns (re-annotated,
   under one alternation) has as language exactly the union of the languages of the patterns *)
Theorem C07_combinator_language_is_the_union : forall orbit ts t w, Forall tok_bounds_ok ts -> any_tree ts = Ok t ->
  (Lang orbit t w <-> exists a, In a ts /\ Lang orbit a w).
Proof. exact any_tree_lang. Qed.
Print Assumptions C07_combinator_language_is_the_union.

(* for globs that build, `any` never fails and the side condition is discharged *)
Theorem C07_combinator_of_built_globs_is_total : forall ts, Forall (fun t => exists e r, build e = BuildOk t r) ts ->
  any_tree ts = Ok (TAlt (0, 0)%N (map (respan (fun _ => (0, 0)%N)) ts)).
Proof. exact built_any_total. Qed.
Print Assumptions C07_combinator_of_built_globs_is_total.
