(* C03 -- Negated walks discard exactly the entries that match the negation. *)
From WaxModel Require Import Base Token Walk.
From WaxModel Require Import Regex Spec Encode.
From WaxProofs Require Import SpecFacts EncodeLang WalkFacts GlobWalkFacts NotWalkFacts.

(* per entry: appending a negation keeps exactly the filtrate that neither of its programs matches *)
Theorem C03_not_keeps_unmatched :
  forall ls prefix gw exh nonexh e,
    final_tag (ls ++ [not_layer prefix gw exh nonexh]) e = Filtrate <->
    final_tag ls e = Filtrate /\
    opt_match exh (join_path (presented prefix gw e Filtrate)) = false /\
    opt_match nonexh (join_path (presented prefix gw e Filtrate)) = false.
Proof. exact not_layer_filtrate. Qed.
Print Assumptions C03_not_keeps_unmatched.

(* and the walk with the negation appended is the pruned pre-order for that stack (= `C13_refines`) *)
Theorem C03_walk_is_pruned_preorder :
  forall ls mind maxd root, walk mind maxd ls root = walk_spec mind maxd ls root.
Proof. exact walk_refines. Qed.
Print Assumptions C03_walk_is_pruned_preorder.

(* the statement at the level of what the walk yields: for every tree, every underlying stack and every depth window, given
   what an 'always exhaustive' verdict promises (beneath a path the exhaustive program matches, the negation matches
   everything: C09), `not` yields exactly the entries of the underlying walk that the negation does not match - discarding
   whole trees is indistinguishable from filtering each entry *)
Theorem C03_not_is_a_filter :
  forall ls exh nonexh,
    (forall p r, opt_match exh (join_path p) = true -> matched exh nonexh (p ++ r) = true) ->
    forall mind maxd root,
      yields (walk mind maxd (ls ++ [nl exh nonexh]) root) =
      filter (fun q => negb (matched exh nonexh q)) (yields (walk mind maxd ls root)).
Proof. exact not_walk_given_promise. Qed.
Print Assumptions C03_not_is_a_filter.

(* end to end in the model, with the promise discharged: when the exhaustive part of the negation is a token tree every
   expansion of which ends in a tree wildcard (in the class of the conformance theorem; e.g. `**/target/**`), run by any
   engine that decides its language, and the negation does not match the empty path, then over any directory tree with
   valid names, any underlying stack and any depth window, `not` yields exactly the entries of the underlying walk that
   the negation does not match *)
Theorem C03_not_is_a_filter_for_tree_terminated_negations :
  forall orbit tx, wf_tok tx = true -> trees_exact tx = true -> ends_tree tx = true ->
  forall fx : str -> bool, (forall w, fx w = true <-> sem orbit (encode tx) w) -> fx [] = false ->
  forall nonexh ls mind maxd root, names_valid root ->
    yields (walk mind maxd (ls ++ [nl (Some fx) nonexh]) root) =
    filter (fun q => negb (matched (Some fx) nonexh q)) (yields (walk mind maxd ls root)).
Proof.
  intros orbit tx Hwf Hexact Hends fx Hfx Hroot nonexh ls.
  apply not_walk_valid_names, (promise_holds orbit tx Hwf Hexact Hends fx Hfx Hroot).
Qed.
Print Assumptions C03_not_is_a_filter_for_tree_terminated_negations.

(* the class is not empty: the tree of not("**/t/**") *)
Example C03_tree_terminated_nonvacuous :
  let sp := (0%N, 0%N) in
  let tx := TAlt sp [TCat sp [TLeaf sp (LTree false); TLeaf sp (LLit false [116%N]); TLeaf sp (LTree true)]] in
  wf_tok tx = true /\ trees_exact tx = true /\ ends_tree tx = true.
Proof. cbv zeta. repeat (split; [vm_compute; reflexivity|]); vm_compute; reflexivity. Qed.

From WaxModel Require Import Variance Fold Query.
From WaxProofs Require Import AlgebraFacts NegationFacts.

(* what "matches the negation" means: the two programs a negation is compiled into (the alternatives of the pattern, split by
   their exhaustiveness verdict, each part recombined with `any`) match together exactly what the negated pattern matches -
   at the level of the documented language, for every pattern whose alternatives have ordered bounds (all built globs);
   includes the adequacy of the fuel of the alternatives queue *)
Theorem C03_negation_programs_match_the_pattern : forall orbit t ext nxt w,
  Forall tok_bounds_ok (into_alternatives t) -> not_partition t = Ok (ext, nxt) ->
  ((opt_lang orbit ext w \/ opt_lang orbit nxt w) <-> Lang orbit t w).
Proof. exact not_partition_lang. Qed.
Print Assumptions C03_negation_programs_match_the_pattern.

Theorem C03_alternatives_cover_the_pattern : forall orbit t w,
  (exists a, In a (into_alternatives t) /\ Lang orbit a w) <-> Lang orbit t w.
Proof. exact into_alternatives_lang. Qed.
Print Assumptions C03_alternatives_cover_the_pattern.

From WaxProofs Require Import NegationWalkFacts NegationAltFacts DepthAltFacts NegationRep.

(* end to end for the negations people write: every alternative of the negated pattern is a flat, rule-checked pattern that does
   not end in a separator (`**/target/**`, `*.md`, `**/.git/**`, `src/**/*.tmp`, any() of such); the two programs are run by engines
   that decide the documented languages of the two parts (the regex crate on the compiled programs, through C01_conformance);
   the negation does not match the empty path.  Then (1) the negation filter matches exactly the paths in the documented language
   of the pattern, and (2) over any tree with valid names, any underlying stack and depth window, not() yields exactly the entries
   of the underlying walk that the pattern does not match.  Nothing about exhaustiveness is assumed: the promise of each Always
   verdict is proved (C09_flat_always_sound) *)
Theorem C03_negation_of_flat_patterns_is_a_filter : forall orbit t ext nxt exh nonexh,
  Forall flat_ok (into_alternatives t) -> not_partition t = Ok (ext, nxt) ->
  decides orbit exh ext -> decides orbit nonexh nxt -> opt_match exh [] = false ->
  (forall q, matched exh nonexh q = true <-> Lang orbit t (join_path q)) /\
  forall ls mind maxd root, names_valid root ->
    yields (walk mind maxd (ls ++ [nl exh nonexh]) root) =
    filter (fun q => negb (matched exh nonexh q)) (yields (walk mind maxd ls root)).
Proof.
  intros orbit t ext nxt exh nonexh Hflat. apply negation_walk_sound_alts.
  eapply Forall_impl; [apply flat_sound|exact Hflat].
Qed.
Print Assumptions C03_negation_of_flat_patterns_is_a_filter.

From WaxModel Require Import Glob.

(* the same with the promise abstracted: every alternative whose verdict is `Always` has a sound verdict *)
Theorem C03_negation_is_a_filter_when_the_verdicts_of_its_alternatives_are_sound : forall orbit t ext nxt exh nonexh,
  Forall (sound_alt orbit) (into_alternatives t) -> not_partition t = Ok (ext, nxt) ->
  decides orbit exh ext -> decides orbit nonexh nxt -> opt_match exh [] = false ->
  (forall q, matched exh nonexh q = true <-> Lang orbit t (join_path q)) /\
  forall ls mind maxd root, names_valid root ->
    yields (walk mind maxd (ls ++ [nl exh nonexh]) root) =
    filter (fun q => negb (matched exh nonexh q)) (yields (walk mind maxd ls root)).
Proof. exact negation_walk_sound_alts. Qed.
Print Assumptions C03_negation_is_a_filter_when_the_verdicts_of_its_alternatives_are_sound.

(* the instance for a negated glob that builds, has no repetition, cannot end with a separator and is not an alternation at its top
   (`**/{.git,node_modules}/**`, `{src,tests}/**/*.tmp`): the promise is C09 with required repetitions (`frp_always_sound`), and a
   glob without repetitions is in that class (the premise `into_alternatives t = [t]` is not used: the statement is
   an instance of `C03_negation_of_any_built_glob_without_repetitions_is_a_filter` below) *)
Theorem C03_negation_of_a_built_glob_without_repetitions_is_a_filter : forall orbit e t r ext nxt exh nonexh,
  build e = BuildOk t r -> rep_free t = true -> may_end_sep t = false -> into_alternatives t = [t] ->
  not_partition t = Ok (ext, nxt) -> decides orbit exh ext -> decides orbit nonexh nxt -> opt_match exh [] = false ->
  (forall q, matched exh nonexh q = true <-> Lang orbit t (join_path q)) /\
  forall ls mind maxd root, names_valid root ->
    yields (walk mind maxd (ls ++ [nl exh nonexh]) root) =
    filter (fun q => negb (matched exh nonexh q)) (yields (walk mind maxd ls root)).
Proof.
  intros orbit e t r ext nxt exh nonexh Hb Hrf Hms _. exact (negation_of_any_built_rep_free_glob orbit e t r ext nxt exh nonexh Hb Hrf Hms).
Qed.
Print Assumptions C03_negation_of_a_built_glob_without_repetitions_is_a_filter.

(* the premises on the glob are satisfiable: **/{a,b}/** is exhaustive and its own only alternative *)
Example C03_built_negation_nonvacuous :
  let e := [42;42;47;123;97;44;98;125;47;42;42]%N in
  exists t r ext, build e = BuildOk t r /\ rep_free t = true /\ may_end_sep t = false /\ into_alternatives t = [t] /\
                  is_exhaustive t = Ok Always /\ not_partition t = Ok (Some ext, None).
Proof. cbv zeta. do 3 eexists. repeat (split; [vm_compute; reflexivity|]); vm_compute; reflexivity. Qed.

(* every negated glob that builds, has no repetition and cannot end with a separator, whatever its shape: alternations at the top are split
   into alternatives, each of which inherits what the rule checker guarantees of the whole *)
Theorem C03_negation_of_any_built_glob_without_repetitions_is_a_filter : forall orbit e t r ext nxt exh nonexh,
  build e = BuildOk t r -> rep_free t = true -> may_end_sep t = false ->
  not_partition t = Ok (ext, nxt) -> decides orbit exh ext -> decides orbit nonexh nxt -> opt_match exh [] = false ->
  (forall q, matched exh nonexh q = true <-> Lang orbit t (join_path q)) /\
  forall ls mind maxd root, names_valid root ->
    yields (walk mind maxd (ls ++ [nl exh nonexh]) root) =
    filter (fun q => negb (matched exh nonexh q)) (yields (walk mind maxd ls root)).
Proof. exact negation_of_any_built_rep_free_glob. Qed.
Print Assumptions C03_negation_of_any_built_glob_without_repetitions_is_a_filter.

(* and the negation of a combinator of such globs: not(any([...])) *)
Theorem C03_negation_of_a_combinator_of_built_globs_without_repetitions_is_a_filter : forall orbit es ts t ext nxt exh nonexh,
  Forall2 (fun e t0 => exists r, build e = BuildOk t0 r /\ is_cat t0 = true /\ rep_free t0 = true /\ may_end_sep t0 = false) es ts -> ts <> [] ->
  any_tree ts = Ok t ->
  not_partition t = Ok (ext, nxt) -> decides orbit exh ext -> decides orbit nonexh nxt -> opt_match exh [] = false ->
  (forall q, matched exh nonexh q = true <-> Lang orbit t (join_path q)) /\
  forall ls mind maxd root, names_valid root ->
    yields (walk mind maxd (ls ++ [nl exh nonexh]) root) =
    filter (fun q => negb (matched exh nonexh q)) (yields (walk mind maxd ls root)).
Proof. exact negation_of_any_of_built_rep_free_globs. Qed.
Print Assumptions C03_negation_of_a_combinator_of_built_globs_without_repetitions_is_a_filter.

From WaxProofs Require Import ExhaustRepFacts RuleZomRep.

(* with repetitions: every negated glob that builds, whose repetitions are written out at least once (not optional_repetition), are bounded
   above or hold a bounded token, and have bodies that begin and end with a leaf, and that cannot end with a separator
   (`not("<a/:1,>*/**/*")`, `not("{<ab:1,3>,c}/**")`): each `Always` verdict's promise is proved (C09 with repetitions), the adjacency
   facts of every expansion come from C06 with repetitions *)
Theorem C03_negation_of_any_built_glob_with_required_repetitions_is_a_filter : forall orbit e t r ext nxt exh nonexh,
  build e = BuildOk t r -> required_reps t = true -> rep_class t = true -> shz t = true -> may_end_sep t = false ->
  not_partition t = Ok (ext, nxt) -> decides orbit exh ext -> decides orbit nonexh nxt -> opt_match exh [] = false ->
  (forall q, matched exh nonexh q = true <-> Lang orbit t (join_path q)) /\
  forall ls mind maxd root, names_valid root ->
    yields (walk mind maxd (ls ++ [nl exh nonexh]) root) =
    filter (fun q => negb (matched exh nonexh q)) (yields (walk mind maxd ls root)).
Proof. exact negation_of_any_built_glob_with_required_reps. Qed.
Print Assumptions C03_negation_of_any_built_glob_with_required_repetitions_is_a_filter.

(* the premises are satisfiable: <a/:1,>*/**/* - an exhaustive negation with a repetition *)
Example C03_repetition_negation_nonvacuous :
  let e := [60;97;47;58;49;44;62;42;47;42;42;47;42]%N in
  exists t r ext, build e = BuildOk t r /\ required_reps t = true /\ rep_class t = true /\ shz t = true /\ may_end_sep t = false /\
                  rep_free t = false /\ is_exhaustive t = Ok Always /\ not_partition t = Ok (Some ext, None).
Proof. cbv zeta. do 3 eexists. repeat (split; [vm_compute; reflexivity|]); vm_compute; reflexivity. Qed.
