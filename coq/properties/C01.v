(* C01 -- Matching conforms to the documented glob semantics.
   Every theorem is a lemma proved in coq/proofs, or follows from such lemmas in a line or two; nothing else lives here. *)
From WaxModel Require Import Base Token Regex Spec Encode.
From WaxProofs Require Import EncodeFacts.

(* character classes stay case sensitive whatever flags (case folding relation) are in force *)
Theorem C01_class_ignores_flags :
  forall orbit orbit' cap s e neg a w,
    sem orbit (enc_leaf cap s e (LClass neg a)) w <-> sem orbit' (enc_leaf cap s e (LClass neg a)) w.
Proof. exact class_ignores_flags. Qed.
Print Assumptions C01_class_ignores_flags.

(* `?` matches exactly one non-separator character *)
Theorem C01_one :
  forall orbit cap s e w, sem orbit (enc_leaf cap s e LOne) w <-> exists c, w = [c] /\ c <> SEP.
Proof. exact one_sem. Qed.
Print Assumptions C01_one.

(* `*` and `$` match exactly the separator-free texts *)
Theorem C01_zero_or_more :
  forall orbit cap s e lz w, sem orbit (enc_leaf cap s e (LZom lz)) w <-> nosep w = true.
Proof. exact zom_sem. Qed.
Print Assumptions C01_zero_or_more.

(* a class matches exactly one listed (unlisted) non-separator character, by exact code point *)
Theorem C01_class :
  forall orbit cap s e neg a w, forallb arch_valid a = true ->
    (sem orbit (enc_leaf cap s e (LClass neg a)) w <-> exists c, w = [c] /\ class_match neg a c = true).
Proof. exact class_sem. Qed.
Print Assumptions C01_class.

Theorem C01_class_never_separator :
  forall orbit cap s e neg a w, sem orbit (enc_leaf cap s e (LClass neg a)) w -> exists c, w = [c] /\ c <> SEP.
Proof. exact class_sem_nosep. Qed.
Print Assumptions C01_class_never_separator.

(* a lone tree wildcard matches every text: every character a path may contain, newlines included *)
Theorem C01_tree_any_character : forall orbit cap w, sem orbit (enc_leaf cap true true (LTree false)) w.
Proof. exact lone_tree_matches_everything. Qed.
Print Assumptions C01_tree_any_character.

(* ---- the main statement ------------------------------------------------------------------------------------------
   For every token tree with valid class ranges, ordered bounds and non-empty alternations in which every tree wildcard is
   encoded for the position it has in every expansion (decidable: [trees_exact]), the compiled program matches a text exactly when
   the text belongs to the documented language: some choice of branches and some permitted numbers of iterations
   give a flat sequence of leaves whose pieces match the text, tree wildcards by their flat position. *)
From WaxProofs Require Import EncodeLang.

Theorem C01_conformance :
  forall orbit t w, wf_tok t = true -> trees_exact t = true -> (sem orbit (encode t) w <-> Lang orbit t w).
Proof. exact conformance. Qed.
Print Assumptions C01_conformance.

(* the hypotheses are satisfiable by non-trivial trees: `a/**/{b,c}*<d:1,2>` *)
Definition C01_example : tok :=
  TCat (0, 0) [TLeaf (0, 0) (LLit false [97]); TLeaf (0, 0) (LTree true);
               TAlt (0, 0) [TCat (0, 0) [TLeaf (0, 0) (LLit false [98])]; TCat (0, 0) [TLeaf (0, 0) (LLit true [99])]];
               TLeaf (0, 0) (LZom false);
               TRep (0, 0) (TCat (0, 0) [TLeaf (0, 0) (LLit false [100])]) 1 (Some 2)].
Theorem C01_conformance_not_vacuous : wf_tok C01_example = true /\ trees_exact C01_example = true.
Proof. split; vm_compute; reflexivity. Qed.
Print Assumptions C01_conformance_not_vacuous.

From WaxProofs Require Import CaptureFacts.

(* the matching engine of the model - the executable the correspondence check runs against the implementation's is_match -
   decides exactly the language [sem] the theorems above are about: it is sound, and the fuel it is given is adequate *)
Theorem C01_model_engine_decides_the_language : forall orbit r w, accepts orbit r w = true <-> sem orbit r w.
Proof. exact accepts_spec. Qed.
Print Assumptions C01_model_engine_decides_the_language.

From WaxProofs Require Import SpecMatchFacts.

(* the oracle the check evaluates on the implementation's outputs decides exactly the documented language, for every token
   tree and every text (the bound on optional repetitions is proved sufficient: every iteration that is not droppable lowers
   2 * remaining text + rank of the scan state) *)
Theorem C01_oracle_decides_the_documented_language : forall orbit t w, spec_match orbit t w = true <-> Lang orbit t w.
Proof. exact spec_match_spec. Qed.
Print Assumptions C01_oracle_decides_the_documented_language.

(* hence, in the class of C01_conformance, the two executables the correspondence check compares the implementation with -
   the model engine on the model of the compiled program, and the oracle - compute the same function *)
Theorem C01_executables_agree : forall orbit t w, wf_tok t = true -> trees_exact t = true ->
  accepts orbit (encode t) w = spec_match orbit t w.
Proof.
  intros orbit t w Hwf He. apply Bool.eq_iff_eq_true. rewrite accepts_spec, spec_match_spec. apply conformance; assumption.
Qed.
Print Assumptions C01_executables_agree.

(* ---- for the globs that build ------------------------------------------------------------------------------------------
   The hypotheses of the main statement are discharged for every glob that builds, except for the three known classes, which are
   exactly their complement: a class with a reversed range (reversed_class_range), a tree wildcard whose flat position is not the
   same in every expansion (unstable_tree_position), a rooted tree wildcard that begins the expression and is followed by something
   (rooted_first_tree).  Outside them the compiled program matches a text exactly when it belongs to the documented language. *)
From WaxModel Require Import Glob.
From WaxProofs Require Import BuiltConformance.

Theorem C01_built_globs_conform : forall orbit e t r,
  build e = BuildOk t r -> has_reversed_range t = false -> trees_stable t = true -> rooted_first_tree t = false ->
  forall w, sem orbit (encode t) w <-> Lang orbit t w.
Proof. exact built_conformance. Qed.
Print Assumptions C01_built_globs_conform.

Theorem C01_class_of_conformance_is_the_complement_of_the_known_classes :
  forall t, trees_exact t = trees_stable t && negb (rooted_first_tree t).
Proof. exact trees_exact_split. Qed.
Print Assumptions C01_class_of_conformance_is_the_complement_of_the_known_classes.
