(* C09 -- An 'always exhaustive' verdict is sound.  Partial: the full statement is [C09_full] and is decided per pattern by the check;
   proved here, class by class: patterns all of whose expansions end in a tree wildcard (whatever the verdict); then the verdict itself
   for flat patterns (concatenations of leaves) and the flat globs that build; for globs that build without repetitions; with
   repetitions that are all required (per expansion that respects the adjacency rules, and for every match where the rule checker
   guarantees them); with plain optional repetitions besides (bounded above, no tree wildcard in the body); and the arithmetic of
   contiguous depth terms behind the guard on unbounded repetitions.  Outside these classes, and for patterns that may end with a
   separator (trailing_boundary), the verdict is left to the check. *)
From WaxModel Require Import Base Token Spec Variance Fold.
From WaxProofs Require Import SpecFacts.

Definition C09_full (has_casing : char -> bool) (orbit : char -> list char) : Prop :=
  forall t p z, is_exhaustive t = Ok Always -> Lang orbit t p -> nosep z = true -> z <> [] ->
    Lang orbit t (p ++ SEP :: z).

(* every path beneath a matched path is matched (even: every extension by `/` and anything) *)
Theorem C09_sound_partial :
  forall orbit t p z, ends_tree t = true -> Lang orbit t p -> Lang orbit t (p ++ SEP :: z).
Proof. exact ends_tree_exhaustive. Qed.
Print Assumptions C09_sound_partial.

From WaxModel Require Import Rule.
From WaxProofs Require Import ZomFacts ExhaustFacts BuiltExhaust.

(* the verdict itself, for every flat pattern (a concatenation of leaves: literals, separators, classes, `?`, `*`, `$`, `**`) that
   respects the rules (no two adjacent boundaries, no two adjacent zero-or-more wildcards) and does not end in a separator (the
   known class trailing_boundary): if the model of the pinned code answers Always, the pattern's last tree wildcard is followed by
   `*` components only (C09_always_means_open_tail), and then everything beneath a matched path is matched *)
Theorem C09_flat_always_sound : forall orbit sp ts p z, forallb is_leaf ts = true -> is_exhaustive (TCat sp ts) = Ok Always ->
  adjacent_boundary ts = None -> adj_zom ts = false -> last_not_sep ts -> nosep z = true ->
  Lang orbit (TCat sp ts) p -> Lang orbit (TCat sp ts) (p ++ SEP :: z).
Proof. exact flat_always_sound. Qed.
Print Assumptions C09_flat_always_sound.

Theorem C09_always_means_open_tail : forall sp ts, forallb is_leaf ts = true -> is_exhaustive (TCat sp ts) = Ok Always ->
  adjacent_boundary ts = None -> adj_zom ts = false -> last_not_sep ts -> open_tail ts.
Proof. exact always_open_tail. Qed.
Print Assumptions C09_always_means_open_tail.

(* the premises are satisfiable: a/**/* *)
Example C09_flat_nonvacuous :
  let sp := (0%N, 0%N) in
  let ts := [TLeaf sp (LLit false [97%N]); TLeaf sp (LTree true); TLeaf sp (LZom false)] in
  forallb is_leaf ts = true /\ is_exhaustive (TCat sp ts) = Ok Always /\ adjacent_boundary ts = None /\ adj_zom ts = false /\ last_not_sep ts.
Proof. cbv zeta. repeat (split; [vm_compute; reflexivity|]); vm_compute; reflexivity. Qed.

From WaxModel Require Import Glob.

(* for the flat globs that build the side conditions are discharged by the rule checker (no adjacent boundaries) and the parser
   (no adjacent zero-or-more wildcards): what remains is the known class trailing_boundary *)
Theorem C09_built_flat_globs_always_sound : forall orbit e sp ts r p z,
  build e = BuildOk (TCat sp ts) r -> forallb is_leaf ts = true ->
  is_exhaustive (TCat sp ts) = Ok Always -> last_not_sep ts -> nosep z = true ->
  Lang orbit (TCat sp ts) p -> Lang orbit (TCat sp ts) (p ++ SEP :: z).
Proof. exact built_flat_always_sound. Qed.
Print Assumptions C09_built_flat_globs_always_sound.

From WaxProofs Require Import DepthAltFacts.

(* the verdict itself for every glob that builds and has no repetition, however the alternations nest (`{src,tests}/**`,
   `**/{a,b}/*`, `x/{a/**,b/**/*}`): every expansion of the tree is covered by a member of the term the exhaustiveness fold
   computes (the taken suffix of every concatenation, conjoined in reverse; the disjunction over branches), a member without upper
   bound means the expansion ends with a tree wildcard followed by separators and zero-or-more wildcards only; with the rule
   checker's guarantees over expansions (C06: no adjacent boundaries, no adjacent zero-or-more wildcards) that tail is `*`, `*/*`,
   ..., which absorbs any further component.  What remains excluded is the known class trailing_boundary (may_end_sep) *)
Theorem C09_built_globs_without_repetitions_always_sound : forall orbit e t r p z,
  build e = BuildOk t r -> rep_free t = true -> is_exhaustive t = Ok Always -> may_end_sep t = false -> nosep z = true ->
  Lang orbit t p -> Lang orbit t (p ++ SEP :: z).
Proof. exact built_rep_free_always_sound. Qed.
Print Assumptions C09_built_globs_without_repetitions_always_sound.

(* the premises are satisfiable: x/{a/**,b/**/*} *)
Example C09_alternation_nonvacuous :
  let e := [120;47;123;97;47;42;42;44;98;47;42;42;47;42;125]%N in
  exists t r, build e = BuildOk t r /\ rep_free t = true /\ is_exhaustive t = Ok Always /\ may_end_sep t = false.
Proof. cbv zeta. do 2 eexists. repeat (split; [vm_compute; reflexivity|]); vm_compute; reflexivity. Qed.

From WaxProofs Require Import DepthTreeFacts RuleZomFacts ExhaustRepFacts ExhaustOptFacts.

(* with repetitions: for every glob that builds and whose repetitions are all written out at least once and are either bounded above
   or have a body that holds a bounded token (`<a:1,2>/**`, `<a/:1,>*/**/*`, `{<a:1,3>,b}/**/*` - the complement inside the
   repetitions is the known class optional_repetition and the repetitions whose unbounded range multiplies an unbounded body), an
   `Always` verdict is sound on every expansion that respects the two adjacency rules (C06) and does not end with a separator
   (trailing_boundary).  The coverage argument of the repetition-free case, without its restriction on the shape of the variances:
   an upper bound never disappears under conjunction, finalisation (`C09_upper_bounds_survive_conjunction`) or a product by a range
   that is bounded above (`C09_upper_bounds_survive_bounded_products`), so a member of the term without upper bound still points at a
   tree wildcard with a free tail - in the last copy of the body, which exists because the repetition is required; the guard of the
   12th repair (no product for a bounded body) is exactly what makes the unbounded ranges harmless *)
Theorem C09_built_globs_with_required_repetitions_always_sound : forall orbit e t r p z x,
  build e = BuildOk t r -> required_reps t = true -> is_exhaustive t = Ok Always -> nosep z = true ->
  Expands t x -> chain_ok false x = true -> zchain false x = true -> last_opt x <> Some LSep ->
  FlatMatch orbit true true x p -> FlatMatch orbit true true x (p ++ SEP :: z).
Proof. exact built_required_reps_always_sound. Qed.
Print Assumptions C09_built_globs_with_required_repetitions_always_sound.

Theorem C09_patterns_with_required_repetitions_always_sound : forall orbit t p z,
  frp t = true -> nonempty_branches t = true -> is_exhaustive t = Ok Always -> nosep z = true ->
  (forall x, Expands t x -> chain_ok false x = true /\ zchain false x = true /\ last_opt x <> Some LSep) ->
  Lang orbit t p -> Lang orbit t (p ++ SEP :: z).
Proof. exact frp_always_sound_lang. Qed.
Print Assumptions C09_patterns_with_required_repetitions_always_sound.

Theorem C09_upper_bounds_survive_conjunction : forall a b c, AlgebraClosure.st_ok a -> AlgebraClosure.st_ok b -> sterm_conj a b = Ok c ->
  AlgebraClosure.st_ok c /\ (vform (snd c) -> vform (snd a) \/ vform (snd b)).
Proof. exact sterm_conj_keeps_upper. Qed.
Print Assumptions C09_upper_bounds_survive_conjunction.

Theorem C09_upper_bounds_survive_bounded_products : forall v r v' h, AlgebraClosure.nv_ok v -> AlgebraClosure.nv_ok r ->
  AlgebraClosure.hi_of r = Some h -> nvar_product v r = Ok v' -> vform v' -> vform v.
Proof. intros v r v' h _ _. exact (product_keeps_upper v r v' h). Qed.
Print Assumptions C09_upper_bounds_survive_bounded_products.

(* the premises are satisfiable: <a/:1,>*/**/* written out twice *)
Example C09_repetition_nonvacuous :
  let e := [60;97;47;58;49;44;62;42;47;42;42;47;42]%N in
  exists t r x, build e = BuildOk t r /\ required_reps t = true /\ is_exhaustive t = Ok Always /\
    Expands t x /\ chain_ok false x = true /\ zchain false x = true /\ last_opt x <> Some LSep.
Proof.
  cbv zeta. do 3 eexists. split; [vm_compute; reflexivity|]. split; [vm_compute; reflexivity|]. split; [vm_compute; reflexivity|].
  split.
  - apply E_cat. constructor; [|repeat constructor].
    eapply (E_rep _ _ _ _ [_; _]); [split; [vm_compute; discriminate|exact I]|repeat constructor].
  - split; [vm_compute; reflexivity|]. split; [vm_compute; reflexivity|]. vm_compute. discriminate.
Qed.

From WaxProofs Require Import RuleZomRep RepClosed.

(* ... and with the adjacency hypotheses discharged (C06 with repetitions): for every glob that builds, whose repetitions are required
   (not optional_repetition), bounded above or holding a bounded token, with bodies that begin and end with a leaf and not both with a
   zero-or-more wildcard, an `Always` verdict is sound for every match - outside trailing_boundary *)
Theorem C09_built_globs_with_required_repetitions_always_sound_unconditionally : forall orbit e t r p z,
  build e = BuildOk t r -> required_reps t = true -> rep_class t = true -> shz t = true ->
  is_exhaustive t = Ok Always -> may_end_sep t = false -> nosep z = true ->
  Lang orbit t p -> Lang orbit t (p ++ SEP :: z).
Proof. exact built_required_reps_always_sound_unconditionally. Qed.
Print Assumptions C09_built_globs_with_required_repetitions_always_sound_unconditionally.

Example C09_repetition_unconditional_nonvacuous :
  let e := [60;97;47;58;49;44;62;42;47;42;42;47;42]%N in
  exists t r, build e = BuildOk t r /\ required_reps t = true /\ rep_class t = true /\ shz t = true /\
    is_exhaustive t = Ok Always /\ may_end_sep t = false.
Proof. cbv zeta. do 2 eexists. repeat (split; [vm_compute; reflexivity|]); vm_compute; reflexivity. Qed.

(* inside the known class optional_repetition: a repetition that may be written out zero times is harmless when it is bounded above and
   its body holds no tree wildcard (`<a:0,2>/**`, `x<a/:0,2>b/**`, `<[0-9]:0,3>*/**/*`) - no member of its term is unbounded
   (`C09_terms_of_tree_free_tokens_promise_nothing`), so it promises nothing whether it is written out or not.  What the known class
   keeps is the optional repetition whose own term is unbounded (`<a/**:0,1>*`).  Per expansion that respects the adjacency rules: with
   optional repetitions the rules do not hold of every expansion (`a/<b:0,>/c` expands to `a//c`) *)
Theorem C09_built_globs_with_plain_repetitions_always_sound : forall orbit e t r p z x,
  build e = BuildOk t r -> plain_reps t = true -> is_exhaustive t = Ok Always -> nosep z = true ->
  Expands t x -> chain_ok false x = true -> zchain false x = true -> last_opt x <> Some LSep ->
  FlatMatch orbit true true x p -> FlatMatch orbit true true x (p ++ SEP :: z).
Proof. exact built_plain_reps_always_sound. Qed.
Print Assumptions C09_built_globs_with_plain_repetitions_always_sound.

Theorem C09_terms_of_tree_free_tokens_promise_nothing : forall t, frq t = true -> tree_free t = true ->
  AlgebraClosure.safe (AlgebraClosure.opt_ok btn) (exh_fold t).
Proof. exact tf_fold. Qed.
Print Assumptions C09_terms_of_tree_free_tokens_promise_nothing.

(* the premises are satisfiable, inside the known class: x<a/:0,2>b/** with the repetition written out zero times *)
Example C09_optional_repetition_nonvacuous :
  let e := [120;60;97;47;58;48;44;50;62;98;47;42;42]%N in
  exists t r x, build e = BuildOk t r /\ plain_reps t = true /\ has_optional_rep t = true /\ is_exhaustive t = Ok Always /\
    Expands t x /\ chain_ok false x = true /\ zchain false x = true /\ last_opt x <> Some LSep.
Proof.
  cbv zeta. do 3 eexists. split; [vm_compute; reflexivity|]. split; [vm_compute; reflexivity|]. split; [vm_compute; reflexivity|]. split; [vm_compute; reflexivity|].
  split.
  - apply E_cat. constructor; [apply E_leaf|constructor; [|repeat constructor]].
    apply (E_rep _ _ _ _ []); [split; vm_compute; discriminate|constructor].
  - split; [vm_compute; reflexivity|]. split; [vm_compute; reflexivity|]. vm_compute. discriminate.
Qed.

From WaxProofs Require Import ContiguousFacts.

(* the arithmetic behind the 13th repair (83c38c1): the depth terms that the fold multiplies by an unbounded range - every member zero, one,
   or without upper bound and with a lower bound of at most one - are those for which one more copy of the body can add exactly one
   component, so the depths reachable by repeating the body are closed under successor; a term with gaps is not ({2,4}:
   `<{*/*/,*/*/*/*/}:1,>*` matched `a/b/c` and not `a/b/c/z` while reporting Always) *)
Theorem C09_contiguous_terms_reach_the_next_depth : forall D, forallb nvar_contiguous D = true -> (exists d, In d D /\ d <> Inv 0%N) ->
  forall n s, reach D n s -> reach D (S n) (s + 1)%N.
Proof. exact contiguous_reach_S. Qed.
Print Assumptions C09_contiguous_terms_reach_the_next_depth.

Example C09_terms_with_gaps_do_not : reach [Inv 2%N; Inv 4%N] 1 2%N /\ forall n, ~ reach [Inv 2%N; Inv 4%N] n 3%N.
Proof. exact gaps_not_closed. Qed.
