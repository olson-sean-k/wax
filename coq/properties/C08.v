(* C08 -- Partitioning preserves meaning. *)
From WaxModel Require Import Base Token Parse Query.
From WaxProofs Require Import ParseFacts.

(* the postfix expression is the suffix of the expression at the byte offset of the popped tokens:
   dropping the bytes of a leading run of characters leaves exactly the rest (on a character boundary) *)
Theorem C08_display_suffix : forall a b, drop_bytes (a ++ b) (blen a) = Some b.
Proof. exact drop_bytes_app. Qed.
Print Assumptions C08_display_suffix.

From WaxModel Require Import Glob.
From WaxProofs Require Import SpanFacts PartitionFacts.

(* partitioning a built glob never cuts its expression inside a character - the bytes popped end where a top-level token begins
   (the tokens tile the expression), unrooting a tree wildcard skips one ASCII character - and never fails to re-annotate the
   postfix: the only possible failure is a checked overflow in the text variance (= C05_partition_panics_only_by_overflow) *)
Theorem C08_partition_is_total_up_to_overflow : forall hc e t r s, build e = BuildOk t r -> partition hc e t = Panic s -> s = PanicOverflow.
Proof. exact partition_panics_only_by_overflow. Qed.
Print Assumptions C08_partition_is_total_up_to_overflow.

(* the tiling; the hypothesis `at_ e i` is not used *)
Theorem C08_top_level_tokens_tile_the_expression : forall e f tm i ts i', at_ e i -> p_tokens f tm i = POk (ts, i') -> tiled (i_pos i) ts (i_pos i').
Proof. intros e f tm i ts i' _. apply p_tokens_tiled. Qed.
Print Assumptions C08_top_level_tokens_tile_the_expression.

From WaxModel Require Import Spec Variance Fold.
From WaxProofs Require Import TextExists PartitionLang PartitionIdem.

(* the first sentence of the property, at the level of the documented language, for every glob that builds.
   A prefix was popped ([n] > 0 tokens, text [text]): what follows it cannot begin with a tree wildcard - then the texts of the glob
   are exactly the prefix followed by the texts of the postfix - or it is a tree wildcard, which gives up its separator - then the
   texts of the glob are the prefix, a separator and a text of the postfix (and the prefix alone when nothing need follow the
   wildcard).  The prefix may be any run of tokens with invariant text (literals, separators, invariant alternations and
   repetitions); hypotheses: the case-folding table agrees with has_casing (validated on every run), no class lists the
   separator (known class separator_class) *)
Theorem C08_partition_preserves_the_language : forall (orbit : char -> list char) (has_casing : char -> bool),
  (forall c d, has_casing c = false -> In d (orbit c) -> d = c) ->
  forall e sp ts r n text post e',
  build e = BuildOk (TCat sp ts) r -> classes_plain (TCat sp ts) = true ->
  invariant_text_prefix has_casing (TCat sp ts) = Ok (n, text) -> (0 < n)%N -> text <> [] ->
  partition has_casing e (TCat sp ts) = Ok (PartSome text post e') ->
  forall first rest, skipn (N.to_nat n) ts = first :: rest ->
    (starts_tree_list (first :: rest) = false -> forall w, Lang orbit (TCat sp ts) w <-> exists r, w = text ++ r /\ Lang orbit post r) /\
    (is_tree first = true -> forall w, Lang orbit (TCat sp ts) w <->
       (exists r, w = text ++ SEP :: r /\ Lang orbit post r) \/ (w = text /\ Expands (TCat sp rest) [])).
Proof. exact built_partition_prefix. Qed.
Print Assumptions C08_partition_preserves_the_language.

(* nothing was popped: the postfix is the glob, except that a glob that begins with a rooted tree wildcard has the root as its
   prefix and the wildcard gives up its separator *)
Theorem C08_partition_without_prefix : forall orbit has_casing e sp ts r text post e',
  build e = BuildOk (TCat sp ts) r -> invariant_text_prefix has_casing (TCat sp ts) = Ok (0%N, text) ->
  partition has_casing e (TCat sp ts) = Ok (PartSome text post e') ->
  forall w, Lang orbit (TCat sp ts) w <->
    match ts with
    | TLeaf _ (LTree true) :: _ => exists r, w = SEP :: r /\ Lang orbit post r
    | _ => Lang orbit post w
    end.
Proof. exact built_partition_no_prefix. Qed.
Print Assumptions C08_partition_without_prefix.

(* the second sentence: partitioned again, the postfix yields an empty prefix and itself (expression included), unless its
   first token is rooted (the known class rooted_repetition) *)
Theorem C08_partition_is_idempotent : forall has_casing e sp ts text post e',
  bounds_list ts -> partition has_casing e (TCat sp ts) = Ok (PartSome text post e') ->
  (match post with TCat _ (t0 :: _) => has_root t0 <> Always | _ => True end) ->
  partition has_casing e' post = Ok (PartSome [] post e').
Proof. exact partition_idempotent. Qed.
Print Assumptions C08_partition_is_idempotent.

(* the premises are satisfiable: `a/**/b` and `a/b/*.c` *)
Example C08_prefix_tree_nonvacuous :
  exists sp ts r post e' first rest,
    build ex1 = BuildOk (TCat sp ts) r /\ classes_plain (TCat sp ts) = true /\
    invariant_text_prefix (fun _ => false) (TCat sp ts) = Ok (1%N, [97%N]) /\
    partition (fun _ => false) ex1 (TCat sp ts) = Ok (PartSome [97%N] post e') /\
    skipn 1 ts = first :: rest /\ is_tree first = true.
Proof. exact partition_prefix_tree_nonvacuous. Qed.
Example C08_prefix_sep_nonvacuous :
  exists sp ts r post e' first rest,
    build ex2 = BuildOk (TCat sp ts) r /\ classes_plain (TCat sp ts) = true /\
    invariant_text_prefix (fun _ => false) (TCat sp ts) = Ok (4%N, [97; 47; 98; 47]%N) /\
    partition (fun _ => false) ex2 (TCat sp ts) = Ok (PartSome [97; 47; 98; 47]%N post e') /\
    skipn 4 ts = first :: rest /\ starts_tree_list (first :: rest) = false.
Proof. exact partition_prefix_sep_nonvacuous. Qed.

From WaxProofs Require Import PartitionSpans.

(* the last clause: the capture spans of the postfix are relative to the displayed suffix (= C17_postfix_capture_spans_lie_in_the_suffix) *)
Theorem C08_postfix_capture_spans_are_relative_to_the_suffix : forall hc e t r text post e' c,
  build e = BuildOk t r -> partition hc e t = Ok (PartSome text post e') -> In c (captures post) -> span_ok e' (snd c).
Proof. exact postfix_capture_spans_ok. Qed.
Print Assumptions C08_postfix_capture_spans_are_relative_to_the_suffix.

From WaxProofs Require Import DepthAltFacts RuleZomRep RootRep PartitionRootRep.

(* "a postfix glob that is never rooted": for every glob that builds and has no repetition.  The prefix loop stops either at a variant
   boundary - a tree wildcard, which gives up its root - or right after the last boundary before the first variant token, and what follows
   a separator cannot begin with a boundary: a token that reports a root has an expansion that begins with one, which the rule checker
   excludes over expansions (C06).  With repetitions: the known class rooted_repetition *)
Theorem C08_postfix_is_never_rooted : forall hc e sp ts r text post e',
  build e = BuildOk (TCat sp ts) r -> rep_free (TCat sp ts) = true ->
  partition hc e (TCat sp ts) = Ok (PartSome text post e') -> has_root post = Never.
Proof. intros hc e sp ts r text post e' Hb Hrf. apply (built_postfix_never_rooted_r hc e sp ts r); auto using rep_free_rep_class, rep_free_chain_rep_free. Qed.
Print Assumptions C08_postfix_is_never_rooted.

(* hence idempotence without side condition for those globs *)
Theorem C08_partition_is_idempotent_for_built_globs_without_repetitions : forall hc e sp ts r text post e',
  build e = BuildOk (TCat sp ts) r -> rep_free (TCat sp ts) = true ->
  partition hc e (TCat sp ts) = Ok (PartSome text post e') -> partition hc e' post = Ok (PartSome [] post e').
Proof. intros hc e sp ts r text post e' Hb Hrf. apply (built_partition_idempotent_r hc e sp ts r); auto using rep_free_rep_class, rep_free_chain_rep_free. Qed.
Print Assumptions C08_partition_is_idempotent_for_built_globs_without_repetitions.

(* the premises are satisfiable: {s,t}/**/*.r has no prefix and an unrooted postfix *)
Example C08_never_rooted_nonvacuous :
  let e := [123;115;44;116;125;47;42;42;47;42;46;114]%N in
  exists sp ts r post e', build e = BuildOk (TCat sp ts) r /\ rep_free (TCat sp ts) = true /\
     partition (fun _ => false) e (TCat sp ts) = Ok (PartSome [] post e') /\ has_root post = Never.
Proof. cbv zeta. do 5 eexists. repeat (split; [vm_compute; reflexivity|]); vm_compute; reflexivity. Qed.

(* with repetitions: the postfix is never rooted, hence partition is idempotent, for every glob that builds, whose repetitions are
   written out at least once with bodies that begin and end with a leaf (the class of C06 over expansions with repetitions) and whose
   starting chain holds no repetition - a glob rooted through a repetition at its very beginning keeps its root (known class
   rooted_repetition).  A repetition that reports a root has an expansion that begins with a boundary (any tree with ordered bounds
   and non-empty branches has expansions: copies of one), and right after a boundary that contradicts C06 *)
Theorem C08_postfix_is_never_rooted_with_required_repetitions : forall hc e sp ts r text post e',
  build e = BuildOk (TCat sp ts) r -> rep_class (TCat sp ts) = true -> chain_rep_free (TCat sp ts) = true ->
  partition hc e (TCat sp ts) = Ok (PartSome text post e') -> has_root post = Never.
Proof. exact built_postfix_never_rooted_r. Qed.
Print Assumptions C08_postfix_is_never_rooted_with_required_repetitions.

Theorem C08_partition_is_idempotent_with_required_repetitions : forall hc e sp ts r text post e',
  build e = BuildOk (TCat sp ts) r -> rep_class (TCat sp ts) = true -> chain_rep_free (TCat sp ts) = true ->
  partition hc e (TCat sp ts) = Ok (PartSome text post e') -> partition hc e' post = Ok (PartSome [] post e').
Proof. exact built_partition_idempotent_r. Qed.
Print Assumptions C08_partition_is_idempotent_with_required_repetitions.

(* the premises are satisfiable: a/<b/:1,>*.c pops `a` and leaves a postfix that begins with the repetition *)
Example C08_repetition_nonvacuous :
  let e := [97;47;60;98;47;58;49;44;62;42;46;99]%N in
  exists sp ts r text post e', build e = BuildOk (TCat sp ts) r /\ rep_class (TCat sp ts) = true /\ chain_rep_free (TCat sp ts) = true /\
     rep_free (TCat sp ts) = false /\ partition (fun _ => false) e (TCat sp ts) = Ok (PartSome text post e') /\ text = [97%N; 47%N] /\ has_root post = Never.
Proof. cbv zeta. do 6 eexists. repeat (split; [vm_compute; reflexivity|]); vm_compute; reflexivity. Qed.
