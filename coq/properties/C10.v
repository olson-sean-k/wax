(* C10 -- Reported depth bounds contain the depth of every match.
   Proved for flat patterns, for trees without repetitions, and for repetitions written out at least once with a single-term body
   (built globs: adjacency discharged by C06, rootedness through has_root).  [C10_full] is the unrestricted statement; outside
   these classes it is decided per generated pattern by the check (exact tie on the reported variance + component counts of
   matched canonical paths). *)
From WaxModel Require Import Base Token Spec Variance Fold.
From WaxProofs Require Import RuleFacts DepthFacts DepthTreeFacts.

Definition C10_full (orbit : char -> list char) : Prop :=
  forall t p v, depth_variance t = Ok v -> Lang orbit t p -> canonical p = true -> 1 <= ncomp p -> in_variance (ncomp p) v.

(* the depth a flat pattern reports is invariant: its separators, plus one if it neither begins nor ends with one, minus one
   if it does both *)
Theorem C10_flat_depth :
  forall sp ts v, flat_cat ts = true -> depth_variance (TCat sp ts) = Ok v -> v = Inv (flat_depth (map leaf_of ts)).
Proof. exact depth_flat. Qed.
Print Assumptions C10_flat_depth.

(* and it is the number of components of every canonical path of the documented language that has a component and begins
   with a separator exactly when the pattern does (hypothesis on the case-folding table: it never produces a separator) *)
Theorem C10_flat_sound :
  forall (orbit : char -> list char), (forall c d, In d (orbit c) -> d <> SEP) ->
  forall sp ts v p l0 rest,
    flat_cat ts = true -> map leaf_of ts = l0 :: rest ->
    depth_variance (TCat sp ts) = Ok v -> Lang orbit (TCat sp ts) p ->
    canonical p = true -> 1 <= ncomp p -> starts_sep p = is_sep_leaf l0 ->
    in_variance (ncomp p) v.
Proof. exact depth_flat_sound. Qed.
Print Assumptions C10_flat_sound.

Theorem C10_leaf_depth :
  forall sp l, depth_variance (TLeaf sp l) =
    match l with LSep => Ok (Inv 0) | LTree _ => Ok (Var Unbounded) | _ => Ok (Inv 1) end.
Proof. exact depth_single_leaf. Qed.
Print Assumptions C10_leaf_depth.

From WaxModel Require Import Rule Glob.
From WaxProofs Require Import SpecFacts ExhaustFacts PruneFacts DepthAltFacts DepthRepFacts BuiltDepth.

(* flat patterns that contain tree wildcards (`src/**/*.rs`, `**/a/*`, `/usr/**`): the reported depth has no upper bound and its
   lower bound is at most the number of components of every canonical path of the documented language; the conjunction fold
   keeps the lower bound below the number of maximal runs of non-boundary leaves, and every run is a component of every match *)
Theorem C10_flat_with_tree_wildcards_sound : forall orbit sp ts v p l0 rest,
  forallb is_leaf ts = true -> adjacent_boundary ts = None -> existsb tree_tok ts = true ->
  map leaf_of ts = l0 :: rest ->
  depth_variance (TCat sp ts) = Ok v -> Lang orbit (TCat sp ts) p ->
  canonical p = true -> 1 <= ncomp p -> starts_sep p = leaf_is_rooting l0 ->
  in_variance (ncomp p) v.
Proof. exact depth_flat_tree_sound. Qed.
Print Assumptions C10_flat_with_tree_wildcards_sound.

(* every flat glob that builds, with or without tree wildcards: the side conditions (no adjacent boundaries, separator-free
   literals) are discharged by the rule checker and the parser *)
Theorem C10_built_flat_globs_sound : forall (orbit : char -> list char), (forall c d, In d (orbit c) -> d <> SEP) ->
  forall e sp ts r v p l0 rest,
  build e = BuildOk (TCat sp ts) r -> forallb is_leaf ts = true -> map leaf_of ts = l0 :: rest ->
  depth_variance (TCat sp ts) = Ok v -> Lang orbit (TCat sp ts) p ->
  canonical p = true -> 1 <= ncomp p -> starts_sep p = leaf_is_rooting l0 ->
  in_variance (ncomp p) v.
Proof. exact built_flat_depth_sound. Qed.
Print Assumptions C10_built_flat_globs_sound.

(* patterns without repetitions - alternations, concatenations, leaves and tree wildcards at any nesting (`*.{rs,toml}`,
   `{src,tests}/**/*.rs`, `**/{a,b}/*`): a term of the depth algebra is a sound summary of a flat leaf sequence, summaries compose
   under conjunction whatever the grouping (the algebra is not associative), every expansion is summarised by a member of the
   tree's term, and the final disjunction covers its finalized members.  The path is matched through an expansion in which no
   two boundaries are adjacent and which begins with a root exactly when the path does; the known class closed_variant_finalize
   is excluded by its predicate *)
Theorem C10_patterns_without_repetitions_sound : forall (orbit : char -> list char), (forall c d, In d (orbit c) -> d <> SEP) ->
  forall t v p x,
  nonempty_branches t = true -> rep_free t = true -> lits_nosep t = true ->
  depth_variance t = Ok v -> depth_closed_variant t = false ->
  Expands t x -> FlatMatch orbit true true x p -> chain_ok false x = true ->
  canonical p = true -> 1 <= ncomp p ->
  starts_sep p = (match x with a :: _ => leaf_is_rooting a | [] => false end) ->
  in_variance (ncomp p) v.
Proof. intros orbit Ho t v p x Hne Hrf. exact (depth_rep_sound orbit Ho t v p x Hne (rep_free_simple_reps t Hrf)). Qed.
Print Assumptions C10_patterns_without_repetitions_sound.

Theorem C10_built_globs_without_repetitions_sound : forall (orbit : char -> list char), (forall c d, In d (orbit c) -> d <> SEP) ->
  forall e t r v p x,
  build e = BuildOk t r -> rep_free t = true ->
  depth_variance t = Ok v -> depth_closed_variant t = false ->
  Expands t x -> FlatMatch orbit true true x p -> chain_ok false x = true ->
  canonical p = true -> 1 <= ncomp p ->
  starts_sep p = (match x with a :: _ => leaf_is_rooting a | [] => false end) ->
  in_variance (ncomp p) v.
Proof. intros orbit Ho e t r v p x Hb Hrf. exact (built_rep_depth_sound orbit Ho e t r v p x Hb (rep_free_simple_reps t Hrf)). Qed.
Print Assumptions C10_built_globs_without_repetitions_sound.

(* the algebra itself: the conjunction of two sound summaries is a sound summary of the concatenation, and a disjunction
   contains whatever its operands contain *)
Theorem C10_summaries_compose : forall s1 s2 s x1 x2, K s1 x1 -> K s2 x2 -> lb x1 && fb x2 = false -> sterm_conj s1 s2 = Ok s -> K s (x1 ++ x2).
Proof. exact K_conj. Qed.
Print Assumptions C10_summaries_compose.

Theorem C10_disjunction_covers : forall a b c n, nvar_disj a b = Ok c -> in_variance n a \/ in_variance n b -> in_variance n c.
Proof. exact nvar_disj_cover. Qed.
Print Assumptions C10_disjunction_covers.

(* the premises are satisfiable: {s,t}/**/*.{r,m/d} reports "at least 2" *)
Example C10_alternation_nonvacuous :
  let sp := (0%N, 0%N) in
  let L s := TLeaf sp (LLit false s) in
  let t := TCat sp [TAlt sp [TCat sp [L [115%N]]; TCat sp [L [116%N]]]; TLeaf sp (LTree true); TLeaf sp (LZom false); L [46%N];
                    TAlt sp [TCat sp [L [114%N]]; TCat sp [L [109%N]; TLeaf sp LSep; L [100%N]]]] in
  nonempty_branches t = true /\ rep_free t = true /\ lits_nosep t = true /\ depth_closed_variant t = false /\
  depth_variance t = Ok (Var (Bounded (BLower 2))).
Proof. cbv zeta. repeat (split; [vm_compute; reflexivity|]); vm_compute; reflexivity. Qed.

(* with repetitions that are written out at least once and whose body has a single depth term (`<a/:1,>b`, `<[0-9]:1,3>.txt`,
   `src/<*/:1,2>*.rs`): the summary is stated on ranges - the separator count of a tree-free sequence lies
   in the variance of its term, a sequence with a tree wildcard has a term without upper bound - and is preserved by the product
   with the repetition range (C10_product_sound) as well as by conjunction (C10_conjunction_sound) *)
Theorem C10_patterns_with_simple_repetitions_sound : forall (orbit : char -> list char), (forall c d, In d (orbit c) -> d <> SEP) ->
  forall t v p x,
  nonempty_branches t = true -> simple_reps t = true -> lits_nosep t = true ->
  depth_variance t = Ok v -> depth_closed_variant t = false ->
  Expands t x -> FlatMatch orbit true true x p -> chain_ok false x = true ->
  canonical p = true -> 1 <= ncomp p ->
  starts_sep p = (match x with a :: _ => leaf_is_rooting a | [] => false end) ->
  in_variance (ncomp p) v.
Proof. exact depth_rep_sound. Qed.
Print Assumptions C10_patterns_with_simple_repetitions_sound.

Theorem C10_built_globs_with_simple_repetitions_sound : forall (orbit : char -> list char), (forall c d, In d (orbit c) -> d <> SEP) ->
  forall e t r v p x,
  build e = BuildOk t r -> simple_reps t = true ->
  depth_variance t = Ok v -> depth_closed_variant t = false ->
  Expands t x -> FlatMatch orbit true true x p -> chain_ok false x = true ->
  canonical p = true -> 1 <= ncomp p ->
  starts_sep p = (match x with a :: _ => leaf_is_rooting a | [] => false end) ->
  in_variance (ncomp p) v.
Proof. exact built_rep_depth_sound. Qed.
Print Assumptions C10_built_globs_with_simple_repetitions_sound.

Theorem C10_conjunction_sound : forall a b c, nvar_conj a b = Ok c ->
  (forall x y, in_variance x a -> in_variance y b -> in_variance (x + y) c) /\ lowN c <= lowN a + lowN b /\ (upN a = None \/ upN b = None -> upN c = None).
Proof. exact conj_sound. Qed.
Print Assumptions C10_conjunction_sound.

Theorem C10_product_sound : forall v r c, nvar_product v r = Ok c ->
  (forall l, Forall (fun a => in_variance a v) l -> in_variance (N.of_nat (length l)) r -> in_variance (sumN l) c) /\ lowN c <= lowN v * lowN r /\ (upN v = None -> 1 <= lowN r -> upN c = None).
Proof. exact product_sound. Qed.
Print Assumptions C10_product_sound.

(* the premises are satisfiable: s/<*/:1,2>*.{r,m} reports "between 3 and 4" *)
Example C10_repetition_nonvacuous :
  let sp := (0%N, 0%N) in
  let L s := TLeaf sp (LLit false s) in
  let t := TCat sp [L [115%N]; TLeaf sp LSep; TRep sp (TCat sp [TLeaf sp (LZom false); TLeaf sp LSep]) 1 (Some 2); TLeaf sp (LZom false); L [46%N];
                    TAlt sp [TCat sp [L [114%N]]; TCat sp [L [109%N]]]] in
  nonempty_branches t = true /\ simple_reps t = true /\ lits_nosep t = true /\ depth_closed_variant t = false /\
  depth_variance t = Ok (Var (Bounded (BBoth 3 1))).
Proof. cbv zeta. repeat (split; [vm_compute; reflexivity|]); vm_compute; reflexivity. Qed.

From WaxProofs Require Import RuleZomRep RepClosed RootRep DepthRootedRep.

(* for globs that build and have no repetition nothing is assumed about adjacency: the rule checker guarantees it for every
   expansion (C06 with repetitions, at `rep_free_rep_class`) *)
Theorem C10_built_globs_without_repetitions_sound_unconditionally : forall (orbit : char -> list char), (forall c d, In d (orbit c) -> d <> SEP) ->
  forall e t r v p,
  build e = BuildOk t r -> rep_free t = true ->
  depth_variance t = Ok v -> depth_closed_variant t = false ->
  Lang orbit t p -> canonical p = true -> 1 <= ncomp p ->
  (forall x, Expands t x -> FlatMatch orbit true true x p -> starts_sep p = (match x with a :: _ => leaf_is_rooting a | [] => false end)) ->
  in_variance (ncomp p) v.
Proof.
  intros orbit Ho e t r v p Hb Hrf.
  exact (built_rep_depth_sound_lang orbit Ho e t r v p Hb (rep_free_simple_reps t Hrf) (rep_free_rep_class t Hrf)).
Qed.
Print Assumptions C10_built_globs_without_repetitions_sound_unconditionally.

(* the same with the rootedness condition stated through the query has_root, as in the property's quantifier ("relative when the pattern
   is unrooted and rooted when it is rooted"): a built glob without repetitions reports Always or Never (C12), and the verdict decides how
   every expansion begins *)
Theorem C10_built_globs_without_repetitions_sound_for_paths_rooted_like_the_glob : forall (orbit : char -> list char), (forall c d, In d (orbit c) -> d <> SEP) ->
  forall e t r v p,
  build e = BuildOk t r -> rep_free t = true ->
  depth_variance t = Ok v -> depth_closed_variant t = false ->
  Lang orbit t p -> canonical p = true -> 1 <= ncomp p ->
  starts_sep p = (match has_root t with Always => true | _ => false end) ->
  in_variance (ncomp p) v.
Proof.
  intros orbit Ho e t r v p Hb Hrf.
  exact (built_rep_depth_sound_rooted orbit Ho e t r v p Hb (rep_free_simple_reps t Hrf) (rep_free_rep_class t Hrf) (rep_free_starts_plainly t Hrf)).
Qed.
Print Assumptions C10_built_globs_without_repetitions_sound_for_paths_rooted_like_the_glob.

(* with repetitions nothing is assumed about adjacency either, when every repetition is written out at least once and its body begins
   and ends with a leaf: the rule checker guarantees every expansion (C06_built_globs_with_required_repetitions_have_no_adjacent_boundaries) *)
Theorem C10_built_globs_with_simple_repetitions_sound_unconditionally : forall (orbit : char -> list char), (forall c d, In d (orbit c) -> d <> SEP) ->
  forall e t r v p,
  build e = BuildOk t r -> simple_reps t = true -> rep_class t = true ->
  depth_variance t = Ok v -> depth_closed_variant t = false ->
  Lang orbit t p -> canonical p = true -> 1 <= ncomp p ->
  (forall x, Expands t x -> FlatMatch orbit true true x p -> starts_sep p = (match x with a :: _ => leaf_is_rooting a | [] => false end)) ->
  in_variance (ncomp p) v.
Proof. exact built_rep_depth_sound_lang. Qed.
Print Assumptions C10_built_globs_with_simple_repetitions_sound_unconditionally.

(* the premises are satisfiable: s/<*/:1,2>*.{r,m} *)
Example C10_repetition_unconditional_nonvacuous :
  let e := [115;47;60;42;47;58;49;44;50;62;42;46;123;114;44;109;125]%N in
  exists t r, build e = BuildOk t r /\ simple_reps t = true /\ rep_class t = true /\ depth_closed_variant t = false /\
    depth_variance t = Ok (Var (Bounded (BBoth 3 1))).
Proof. cbv zeta. do 2 eexists. repeat (split; [vm_compute; reflexivity|]); vm_compute; reflexivity. Qed.

(* ... and with the rootedness condition stated through has_root, as in the property's own quantifier: the glob starts plainly, so it
   is never "sometimes rooted" (C12), and the verdict decides how every expansion begins (repetitions are written out at least once) *)
Theorem C10_built_globs_with_simple_repetitions_sound_for_paths_rooted_like_the_glob : forall (orbit : char -> list char), (forall c d, In d (orbit c) -> d <> SEP) ->
  forall e t r v p,
  build e = BuildOk t r -> simple_reps t = true -> rep_class t = true -> starts_plainly t = true ->
  depth_variance t = Ok v -> depth_closed_variant t = false ->
  Lang orbit t p -> canonical p = true -> 1 <= ncomp p ->
  starts_sep p = (match has_root t with Always => true | _ => false end) ->
  in_variance (ncomp p) v.
Proof. exact built_rep_depth_sound_rooted. Qed.
Print Assumptions C10_built_globs_with_simple_repetitions_sound_for_paths_rooted_like_the_glob.

Example C10_repetition_rooted_nonvacuous :
  let e := [115;47;60;42;47;58;49;44;50;62;42;46;123;114;44;109;125]%N in
  exists t r, build e = BuildOk t r /\ simple_reps t = true /\ rep_class t = true /\ starts_plainly t = true /\ depth_closed_variant t = false /\
    has_root t = Never /\ depth_variance t = Ok (Var (Bounded (BBoth 3 1))).
Proof. cbv zeta. do 2 eexists. repeat (split; [vm_compute; reflexivity|]); vm_compute; reflexivity. Qed.
