(* C11 -- Invariant text is the one and only path the pattern matches. *)
From WaxModel Require Import Base Regex Spec Variance Fold.
From WaxProofs Require Import SpecFacts TextFacts.

(* for every token tree (globs and combinators): if the pattern reports invariant text, no other text belongs to its
   documented language.  The one assumption on the two tables (validated over all code points on every run): a
   character the code considers caseless is only folded to itself by the regex engine. *)
Theorem C11_unique :
  forall (orbit : char -> list char) (has_casing : char -> bool),
    (forall c d, has_casing c = false -> In d (orbit c) -> d = c) ->
    forall t txt w,
      nonempty_branches t = true -> text_variance has_casing t = Ok (Inv txt) -> Lang orbit t w -> w = text_to_string txt.
Proof. exact invariant_text_is_the_only_text. Qed.
Print Assumptions C11_unique.

(* a pattern whose documented language has two different texts reports variant text *)
Theorem C11_two_texts_variant :
  forall (orbit : char -> list char) (has_casing : char -> bool),
    (forall c d, has_casing c = false -> In d (orbit c) -> d = c) ->
    forall t txt x1 x2 f1 l1 f2 l2 w1 w2,
      nonempty_branches t = true -> Expands t x1 -> Expands t x2 ->
      FlatMatch orbit f1 l1 x1 w1 -> FlatMatch orbit f2 l2 x2 w2 -> w1 <> w2 ->
      text_fold has_casing t <> Ok (Some (Inv txt)).
Proof. exact two_texts_variant. Qed.
Print Assumptions C11_two_texts_variant.

(* a case sensitive literal matches only its own text, and does match it *)
Theorem C11_literal_unique : forall orbit s w, lit_sem orbit false s w -> w = s.
Proof. exact lit_sem_exact. Qed.
Print Assumptions C11_literal_unique.

Theorem C11_literal_matches : forall orbit ci s, lit_sem orbit ci s s.
Proof. exact lit_sem_refl. Qed.
Print Assumptions C11_literal_matches.

From WaxProofs Require Import TextExists.

(* existence: a pattern that reports invariant text does match it, provided no class lists the separator (such a class
   reports the text `/` although it matches nothing: the known class separator_class) *)
Theorem C11_matched :
  forall (orbit : char -> list char) (has_casing : char -> bool) t txt,
    nonempty_branches t = true -> classes_plain t = true ->
    text_variance has_casing t = Ok (Inv txt) -> Lang orbit t (text_to_string txt).
Proof. exact invariant_text_is_matched. Qed.
Print Assumptions C11_matched.

(* the property as stated: the invariant text is the one and only path in the documented language *)
Theorem C11_one_and_only :
  forall (orbit : char -> list char) (has_casing : char -> bool),
    (forall c d, has_casing c = false -> In d (orbit c) -> d = c) ->
    forall t txt, nonempty_branches t = true -> classes_plain t = true -> text_variance has_casing t = Ok (Inv txt) ->
    forall w, Lang orbit t w <-> w = text_to_string txt.
Proof. exact invariant_text_characterises. Qed.
Print Assumptions C11_one_and_only.

From WaxModel Require Import Glob.
From WaxProofs Require Import BuiltNonempty.

(* for every glob that builds the side condition on the tree is discharged (the parser never produces an empty alternation or
   concatenation, the rule checker rejects the bounds 0,0) *)
Theorem C11_built_globs_one_and_only :
  forall (orbit : char -> list char) (has_casing : char -> bool),
    (forall c d, has_casing c = false -> In d (orbit c) -> d = c) ->
    forall e t r txt, build e = BuildOk t r -> classes_plain t = true -> text_variance has_casing t = Ok (Inv txt) ->
    forall w, Lang orbit t w <-> w = text_to_string txt.
Proof. exact built_invariant_text_characterises. Qed.
Print Assumptions C11_built_globs_one_and_only.
