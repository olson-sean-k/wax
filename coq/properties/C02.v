(* C02 -- Walking a glob yields exactly the files whose relative path matches. *)
From WaxModel Require Import Base Token Walk.
From WaxModel Require Import Regex Encode Parse Query.
From WaxProofs Require Import WalkFacts PruneFacts ParseTreeFacts GlobWalkFacts.

(* an entry is only yielded when the complete program matches its path relative to the directory given (= `C14_yielded_is_matched`) *)
Theorem C02_yields_only_matches :
  forall prefix progs complete e t,
    glob_layer prefix progs complete e t = Keep -> complete (join_path (prefix ++ e_path e)) = true.
Proof. exact glob_layer_keep_matches. Qed.
Print Assumptions C02_yields_only_matches.

(* a directory is only discarded as a tree when a component program rejects the component at its own position *)
Theorem C02_prune_needs_a_rejected_component :
  forall cands progs whole,
    zip_loop cands progs whole = VTree ->
    exists i c pr, nth_error cands i = Some c /\ nth_error progs i = Some pr /\ pr c = false.
Proof. exact zip_loop_tree. Qed.
Print Assumptions C02_prune_needs_a_rejected_component.

(* for any stack (in particular with the glob layer first), the walk is the pruned pre-order of the tree (= `C13_refines`) *)
Theorem C02_walk_is_pruned_preorder :
  forall ls mind maxd root, walk mind maxd ls root = walk_spec mind maxd ls root.
Proof. exact walk_refines. Qed.
Print Assumptions C02_walk_is_pruned_preorder.

(* the statement at the level of what the walk yields: for every tree, given pruning soundness of the component programs
   (whatever the complete program accepts, every component program accepts at its own position - what the tie and the oracle
   check of the code's programs), the walk yields exactly the entries the complete program matches (that have at least as
   many components as there are component programs), in pre-order, each once; pruning never loses one *)
Theorem C02_walk_yields_exactly_the_matches :
  forall prefix progs complete,
    (forall rel, complete (join_path rel) = true ->
       forall i c pr, nth_error rel i = Some c -> nth_error progs i = Some pr -> pr c = true) ->
    forall root,
      yields (walk 0 None [glob_layer prefix progs complete] root) =
      filter (keeps prefix progs complete) (all_entries [] root).
Proof. exact glob_walk_given_pruning. Qed.
Print Assumptions C02_walk_yields_exactly_the_matches.

(* pruning soundness of the programs the encoder builds (the hypothesis above, discharged): for every token tree whose
   literals are separator-free, whatever path of valid names the complete program accepts, every component program accepts
   the component at its own position (orbit: any case-folding table that never folds to the separator - checked over all
   code points on every run) *)
Theorem C02_component_programs_prune_soundly :
  forall orbit, (forall c d, In d (orbit c) -> d <> SEP) ->
  forall t rel, lits_nosep t = true -> Forall valid_name rel -> sem orbit (encode t) (join_path rel) ->
  forall i c comp, nth_error rel i = Some c ->
    nth_error (take_until_boundary (components (concatenation t))) i = Some comp -> sem orbit (enc_component comp) c.
Proof. exact prune_sound. Qed.
Print Assumptions C02_component_programs_prune_soundly.

(* ... and every tree the parser produces has separator-free literals *)
Theorem C02_parsed_literals_are_separator_free : forall e t, parse e = ParseOk t -> lits_nosep t = true.
Proof. exact parse_lits_nosep. Qed.
Print Assumptions C02_parsed_literals_are_separator_free.

(* end to end in the model: the walk of a glob with the complete program and the component programs the encoder builds for
   it, run by any engine that decides the regular languages, over any directory tree with valid names, yields exactly the
   entries whose path the complete program matches (with at least as many components as there are component programs),
   in pre-order, each once *)
Theorem C02_walk_of_a_glob_yields_exactly_its_matches :
  forall orbit, (forall c d, In d (orbit c) -> d <> SEP) ->
  forall t, lits_nosep t = true ->
  forall complete : str -> bool, (forall w, complete w = true <-> sem orbit (encode t) w) ->
  forall progs : list (name -> bool),
    Forall2 (fun (pr : name -> bool) r => forall w, pr w = true <-> sem orbit r w) progs (component_programs t) ->
  forall prefix, Forall valid_name prefix ->
  forall root, names_valid root ->
    yields (walk 0 None [glob_layer prefix progs complete] root) =
    filter (keeps prefix progs complete) (all_entries [] root).
Proof. exact glob_walk_complete. Qed.
Print Assumptions C02_walk_of_a_glob_yields_exactly_its_matches.

(* globs with an invariant prefix (the walk starts below the directory given): the prefix components, the starting directory
   and the translated depth window are part of the model; over a tree with valid, distinct sibling names, what the walk yields
   are exactly the entries of the whole tree that lie at or below the prefix and that the complete program matches *)
Theorem C02_prefixed_glob_walk_yields_exactly_its_matches :
  forall orbit, (forall c d, In d (orbit c) -> d <> SEP) ->
  forall t, lits_nosep t = true ->
  forall complete : str -> bool, (forall w, complete w = true <-> sem orbit (encode t) w) ->
  forall progs : list (name -> bool),
    Forall2 (fun (pr : name -> bool) r => forall w, pr w = true <-> sem orbit r w) progs (component_programs t) ->
  forall root prefix_text, names_valid root -> names_unique root ->
    glob_walk_root root prefix_text = lookup root (split_components prefix_text) ->
    yields (glob_walk root prefix_text 0 None progs complete []) =
    filter (keeps (split_components prefix_text) progs complete) (below (split_components prefix_text) (all_entries [] root)).
Proof. exact prefixed_glob_walk_complete. Qed.
Print Assumptions C02_prefixed_glob_walk_yields_exactly_its_matches.

From WaxModel Require Import Spec Glob.
From WaxProofs Require Import BuiltWalk.

(* in terms of the documented language: for a glob that builds outside the three known classes of C01, the walk yields exactly the
   entries of the tree whose path below the directory given belongs to the documented language of the glob (and has at least as many
   components as there are component programs) - C02's "exactly those whose path relative to the root the glob matches", with
   "matches" being the language stated without regular expressions *)
Theorem C02_walk_of_a_built_glob_yields_its_documented_language : forall orbit, (forall c d, In d (orbit c) -> d <> SEP) ->
  forall e t r, build e = BuildOk t r -> has_reversed_range t = false -> trees_stable t = true -> rooted_first_tree t = false ->
  forall complete : str -> bool, (forall w, complete w = true <-> sem orbit (encode t) w) ->
  forall progs : list (name -> bool),
    Forall2 (fun (pr : name -> bool) re0 => forall w, pr w = true <-> sem orbit re0 w) progs (component_programs t) ->
  forall prefix, Forall valid_name prefix ->
  forall root, names_valid root ->
  forall q, In q (yields (walk 0 None [glob_layer prefix progs complete] root)) <->
            In q (all_entries [] root) /\ Lang orbit t (join_path (prefix ++ q)) /\ (length progs <= length (prefix ++ q))%nat.
Proof. exact built_glob_walk_yields_the_language. Qed.
Print Assumptions C02_walk_of_a_built_glob_yields_its_documented_language.
