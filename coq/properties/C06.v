(* C06 -- Rule checking accepts exactly the well-formed expressions, context-free: bounds and the in-concatenation boundary rule at
   every node; fuel adequacy; the two adjacency rules over expansions (soundness, with and without repetitions) and their converse
   (every verdict has a witness). *)
From WaxModel Require Import Base Token Rule.
From WaxProofs Require Import RuleFacts.

(* repetition bounds are ordered and non-degenerate at every depth of a glob that builds *)
Theorem C06_built_bounds_ordered :
  forall t, check t = Ok None -> Forall (fun x => bad_bounds x = false) (bfs t).
Proof. exact check_bounds. Qed.
Print Assumptions C06_built_bounds_ordered.

(* no concatenation of a glob that builds has two adjacent boundary tokens *)
Theorem C06_built_no_adjacent_boundary :
  forall t, check t = Ok None ->
    Forall (fun x => match x with TCat _ ts => adjacent_boundary ts = None | _ => True end) (bfs t).
Proof. exact check_boundary. Qed.
Print Assumptions C06_built_no_adjacent_boundary.

Theorem C06_adjacent_boundary_none :
  forall l a b r, adjacent_boundary (l ++ a :: b :: r) = None -> is_boundary a && is_boundary b = false.
Proof. exact adjacent_boundary_none. Qed.
Print Assumptions C06_adjacent_boundary_none.

From WaxProofs Require Import FuelFacts RuleAdjFacts.

(* the two breadth-first traversals of the rule checker (the level-order enumeration used by the boundary, bounds and size
   rules, and the queue of the branch rules) are bounded by explicit fuel in the model; the fuel is adequate for every tree:
   more fuel never changes the result, so no node is left unvisited and no verdict is an artefact of the bound *)
Theorem C06_level_order_fuel_adequate : forall t k, bfs_levels (tsize t + k) [t] = bfs t.
Proof. exact bfs_enough. Qed.
Print Assumptions C06_level_order_fuel_adequate.

Theorem C06_branch_rules_fuel_adequate : forall t k, branch_loop (S (tsize t) + k) [(outer_default, t)] = rule_branch t.
Proof. exact rule_branch_enough. Qed.
Print Assumptions C06_branch_rules_fuel_adequate.

(* the enumeration reaches every node, so the two rules above hold at every node of a glob that builds
   ([sub x t]: x is t or a descendant of t) *)
Theorem C06_built_bounds_ordered_everywhere :
  forall t, check t = Ok None -> forall x, sub x t -> bad_bounds x = false.
Proof. exact built_bounds_everywhere. Qed.
Print Assumptions C06_built_bounds_ordered_everywhere.

Theorem C06_built_no_adjacent_boundary_everywhere :
  forall t, check t = Ok None -> forall sp ts, sub (TCat sp ts) t -> adjacent_boundary ts = None.
Proof. exact built_no_adjacent_boundary_everywhere. Qed.
Print Assumptions C06_built_no_adjacent_boundary_everywhere.

From WaxModel Require Import Parse.
From WaxProofs Require Import ZomFacts.

(* the rule "no two zero-or-more wildcards become adjacent" inside one concatenation is enforced by the parser itself (the
   rule checker only looks across branch edges): no concatenation of a parsed expression, at any depth, has two adjacent
   zero-or-more wildcards - `**` reads as a tree wildcard, `*$`, `$*`, `$$`, `*(?i)*` do not parse *)
Theorem C06_parser_never_puts_two_zero_or_more_wildcards_together : forall e t, parse e = ParseOk t -> zom_ok t = true.
Proof. exact parse_no_adjacent_zom. Qed.
Print Assumptions C06_parser_never_puts_two_zero_or_more_wildcards_together.

From WaxModel Require Import Regex Spec Glob.
From WaxProofs Require Import SpecFacts DepthTreeFacts DepthAltFacts ParseShape.

(* the boundary rule over *expansions*: for globs without repetitions the rule checker is sound however the alternations nest - if the
   check passes, no expansion of the tree (no choice of branches) has two adjacent boundaries (separators or tree wildcards).  The
   breadth-first branch check is characterised declaratively (every item the queue can reach is processed without error:
   C06_every_reachable_item_is_checked), then an induction over the tree carries the outer context - the deep left and right
   neighbours that nested branches inherit - through the alternations *)
Theorem C06_passing_globs_have_no_adjacent_boundaries_in_any_expansion : forall t,
  check t = Ok None -> shp t = true -> nonempty_branches t = true -> forall x, Expands t x -> chain_ok false x = true.
Proof. exact check_no_adjacent_boundaries. Qed.
Print Assumptions C06_passing_globs_have_no_adjacent_boundaries_in_any_expansion.

Theorem C06_built_globs_without_repetitions_have_no_adjacent_boundaries : forall e t r,
  build e = BuildOk t r -> rep_free t = true -> forall x, Expands t x -> chain_ok false x = true.
Proof. exact built_no_adjacent_boundaries. Qed.
Print Assumptions C06_built_globs_without_repetitions_have_no_adjacent_boundaries.

Theorem C06_every_reachable_item_is_checked : forall t, check t = Ok None ->
  forall d, reach (outer_default, t) d -> fst (branch_item d) = None.
Proof. exact check_item_ok. Qed.
Print Assumptions C06_every_reachable_item_is_checked.

(* every parsed tree has the shape the branch rules assume: members of a concatenation are never concatenations, branches and
   repetition bodies always are *)
Theorem C06_parsed_trees_are_shaped : forall e t, parse e = ParseOk t -> sh t.
Proof. exact parse_sh. Qed.
Print Assumptions C06_parsed_trees_are_shaped.

From WaxProofs Require Import RuleZomFacts RuleZomRep.

(* the same for the rule "no two zero-or-more wildcards become adjacent": inside one concatenation the parser enforces it, across the
   borders of alternations the branch check does, through the same inherited outer context *)
Theorem C06_built_globs_without_repetitions_have_no_adjacent_zero_or_more_wildcards : forall e t r,
  build e = BuildOk t r -> rep_free t = true -> forall x, Expands t x -> zchain false x = true.
Proof. exact built_no_adjacent_zoms. Qed.
Print Assumptions C06_built_globs_without_repetitions_have_no_adjacent_zero_or_more_wildcards.

From WaxProofs Require Import RuleCompleteFacts.

(* the other direction for the boundary rule - no false rejection, "the verdict depends only on its own neighbours": for expressions
   without repetitions, an AdjacentBoundary verdict (from the rule inside a concatenation or from the breadth-first branch check) always has
   a witness - some choice of branches yields a sequence that does hold two adjacent boundaries.  Every item the branch check reaches is
   *embedded*: its expansions occur in expansions of the whole tree immediately between expansions of the outer left and right tokens it is
   checked against, so the contexts nested branches inherit are real neighbours (C06_reached_items_are_embedded); a token that can end
   (begin) with a boundary has an expansion that does.  Together with C06_passing_globs_have_no_adjacent_boundaries_in_any_expansion this is
   "exactly" for that rule; the false rejection `{a/}x{/c}` and the context leak `{{/a,b}c,d}x{e,f}` of the pinned tree (repaired: 5c8dd9b,
   592b703) are instances the theorems exclude *)
Theorem C06_adjacent_boundary_verdicts_have_a_witness : forall e t sp, parse e = ParseOk t -> rep_free t = true ->
  check t = Ok (Some (AdjacentBoundary, sp)) -> exists x, Expands t x /\ chain_ok false x = false.
Proof. intros e t sp Hp Hr. exact (check_adjacent_boundary_is_real t sp (parsed_good e t Hp Hr)). Qed.
Print Assumptions C06_adjacent_boundary_verdicts_have_a_witness.

Theorem C06_reached_items_are_embedded : forall root it d, reach it d -> Inv root it -> Inv root d.
Proof. exact reach_inv. Qed.
Print Assumptions C06_reached_items_are_embedded.

From WaxProofs Require Import RuleCompleteZom.

(* and for the rule on zero-or-more wildcards *)
Theorem C06_adjacent_zero_or_more_verdicts_have_a_witness : forall e t sp, parse e = ParseOk t -> rep_free t = true ->
  check t = Ok (Some (AdjacentZeroOrMore, sp)) -> exists x, Expands t x /\ zchain false x = false.
Proof. intros e t sp Hp Hr. exact (check_adjacent_zom_is_real t sp (parsed_good e t Hp Hr)). Qed.
Print Assumptions C06_adjacent_zero_or_more_verdicts_have_a_witness.

(* with repetitions: for every glob that builds and whose repetitions are all written out at least once with a body that begins and
   ends with a leaf (`<a/:1,>b`, `{<ab:1,3>,c}/**`), no expansion - no choice of branches, no number of copies - holds two adjacent
   boundaries.  The induction of the repetition-free case with one more in-context claim: the body of a repetition is an item in the
   repetition's own context, and consecutive copies meet at the body's two leaf terminals, which check_repetition compared.  The two
   conditions are sharp: a repetition that may be written out zero times lets its neighbours meet (`a/<b:0,>/c` builds and expands
   to `a//c`), and the wrap-around adjacency is only checked on leaf terminals (known class wraparound_nested_edge) *)
Theorem C06_built_globs_with_required_repetitions_have_no_adjacent_boundaries : forall e t r,
  build e = BuildOk t r -> rep_class t = true -> forall x, Expands t x -> chain_ok false x = true.
Proof. exact built_no_adjacent_boundaries_r. Qed.
Print Assumptions C06_built_globs_with_required_repetitions_have_no_adjacent_boundaries.

(* the second adjacency rule has no wrap-around check at all (`<*a*:2>` builds and expands to `*a**a*`): the class excludes bodies that
   both begin and end with a zero-or-more wildcard *)
Theorem C06_built_globs_with_required_repetitions_have_no_adjacent_zero_or_more_wildcards : forall e t r,
  build e = BuildOk t r -> rep_class t = true -> shz t = true -> forall x, Expands t x -> zchain false x = true.
Proof. exact built_no_adjacent_zoms_r. Qed.
Print Assumptions C06_built_globs_with_required_repetitions_have_no_adjacent_zero_or_more_wildcards.

(* the premises are satisfiable: {<a/:1,>b,c}/** *)
Example C06_repetition_class_nonvacuous :
  let e := [123;60;97;47;58;49;44;62;98;44;99;125;47;42;42]%N in
  exists t r, build e = BuildOk t r /\ rep_class t = true /\ shz t = true /\ rep_free t = false.
Proof. cbv zeta. do 2 eexists. repeat (split; [vm_compute; reflexivity|]); vm_compute; reflexivity. Qed.

(* the two conditions are sharp (witnesses evaluated in the model of the build pipeline): an optional repetition lets its neighbours meet,
   and the second rule has no wrap-around check *)
Example C06_optional_repetitions_let_their_neighbours_meet :
  let e := [97;47;60;98;58;48;44;62;47;99]%N in
  exists t r x, build e = BuildOk t r /\ rep_class t = false /\ Expands t x /\ chain_ok false x = false.
Proof.
  cbv zeta. do 3 eexists. split; [vm_compute; reflexivity|]. split; [vm_compute; reflexivity|]. split.
  - eapply (E_cat _ _ [_; _; _; _; _]). constructor; [|constructor; [|constructor; [|constructor; [|constructor; [|constructor]]]]]; try apply E_leaf.
    eapply (E_rep _ _ _ _ []); [split; [vm_compute; discriminate|exact I]|constructor].
  - vm_compute. reflexivity.
Qed.

Example C06_the_second_rule_has_no_wrap_around_check :
  let e := [60;42;97;42;58;50;62]%N in
  exists t r x, build e = BuildOk t r /\ rep_class t = true /\ shz t = false /\ Expands t x /\ zchain false x = false.
Proof.
  cbv zeta. do 3 eexists. split; [vm_compute; reflexivity|]. split; [vm_compute; reflexivity|]. split; [vm_compute; reflexivity|]. split.
  - eapply (E_cat _ _ [_]). constructor; [|constructor].
    eapply (E_rep _ _ _ _ [_; _]); [split; vm_compute; [discriminate|discriminate]|].
    constructor; [|constructor; [|constructor]]; (eapply (E_cat _ _ [_; _; _]); constructor; [apply E_leaf|constructor; [apply E_leaf|constructor; [apply E_leaf|constructor]]]).
  - vm_compute. reflexivity.
Qed.
