(* C13 -- Discarded directory trees are never read, and only they are skipped. *)
From WaxModel Require Import Base Walk.
From WaxProofs Require Import WalkFacts.
Local Open Scope nat_scope.

(* for every directory tree, every stack of layers and every depth window, the machine (walkdir's stack with
   skip_current_dir, WalkTree's is_dir guard, the residue transitions of the layers) produces exactly the pruned
   pre-order: every entry that has no proper ancestor directory discarded as a tree, in order, once.  The same statement stands in C02
   (`C02_walk_is_pruned_preorder`), C03 (`C03_walk_is_pruned_preorder`), C15 (`C15_machine_is_the_windowed_preorder`) and C20
   (`C20_faults_in_place`) *)
Theorem C13_refines :
  forall ls mind maxd root, walk mind maxd ls root = walk_spec mind maxd ls root.
Proof. exact walk_refines. Qed.
Print Assumptions C13_refines.

Theorem C13_machine_refines_from_any_state :
  forall ls mind maxd fuel st, measure st < fuel -> run fuel mind maxd ls st = spec_wd ls mind maxd st.
Proof. exact run_refines. Qed.
Print Assumptions C13_machine_refines_from_any_state.

(* nothing beneath a directory that some layer discards as a tree is produced to anyone *)
Theorem C13_discarded_tree_is_not_read :
  forall ls mind maxd d p kids,
    pruned ls mind d (mkEntry p true) = true ->
    spec ls mind maxd d p (NDir kids) = shown ls mind d (mkEntry p true).
Proof. intros ls mind maxd d p kids H. rewrite spec_dir, H. apply app_nil_r. Qed.
Print Assumptions C13_discarded_tree_is_not_read.

(* discarding a directory as a single file (or keeping it) skips none of its children *)
Theorem C13_file_discard_skips_nothing :
  forall ls mind maxd d p kids,
    pruned ls mind d (mkEntry p true) = false -> over maxd (S d) = false ->
    spec ls mind maxd d p (NDir kids) =
    shown ls mind d (mkEntry p true) ++ flat_map (fun k => spec ls mind maxd (S d) (p ++ [fst k]) (snd k)) kids.
Proof. intros ls mind maxd d p kids H H0. rewrite spec_dir, H, H0. reflexivity. Qed.
Print Assumptions C13_file_discard_skips_nothing.

(* whatever the verdicts on an entry that is not a directory, nothing else is affected *)
Theorem C13_nondirectory_discard_is_local :
  forall ls mind maxd d p, spec ls mind maxd d p NFile = shown ls mind d (mkEntry p false).
Proof. reflexivity. Qed.
Print Assumptions C13_nondirectory_discard_is_local.

(* the walk is cancelled at most once per entry, and exactly when the entry ends up discarded as a tree *)
Theorem C13_one_cancellation :
  forall l e t c acc, t <> RTree ->
    (exists acc', through l e t c acc = (RTree, S c, acc')) \/
    (exists t' acc', t' <> RTree /\ through l e t c acc = (t', c, acc')).
Proof. exact through_shape. Qed.
Print Assumptions C13_one_cancellation.
