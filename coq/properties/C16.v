(* C16 -- Walk filters compose monotonically and independently of order. *)
From Coq Require Import Permutation.
From WaxModel Require Import Base Walk.
From WaxProofs Require Import WalkFacts.
Local Open Scope nat_scope.

(* stacking the same combinators in any order gives the same items with the same tags (for layers whose verdict
   is a function of the entry: path walks and prefix-free glob walks) *)
Theorem C16_permutation :
  forall l l' mind maxd n d p,
    Permutation l l' -> Forall tag_independent l ->
    map strip (spec l mind maxd d p n) = map strip (spec l' mind maxd d p n).
Proof. intros l l' mind maxd n d p Hp Hi. apply spec_ext. intros e. apply final_tag_permutation; assumption. Qed.
Print Assumptions C16_permutation.

Theorem C16_outcome_order_independent :
  forall l l' e, Permutation l l' -> Forall tag_independent l -> final_tag l e = final_tag l' e.
Proof. exact final_tag_permutation. Qed.
Print Assumptions C16_outcome_order_independent.

(* a later filter never brings an entry back nor downgrades a discarded tree to a discarded file *)
Theorem C16_monotone :
  forall l1 l2 e, tag_rank (final_tag l1 e) <= tag_rank (final_tag (l1 ++ l2) e).
Proof. intros l1 l2 e. rewrite !final_tag_fold, fold_left_app. apply fold_tag_monotone. Qed.
Print Assumptions C16_monotone.

(* every layer observes every produced entry exactly once *)
Theorem C16_observes_once : forall l e, length (seen_tags l e) = length l.
Proof. intros l e. unfold seen_tags. rewrite through_seen_length. symmetry. apply plus_n_O. Qed.
Print Assumptions C16_observes_once.
