(* C04 -- Captures are consistent with the match and with the expression. *)
From WaxModel Require Import Base Token Regex Spec Encode.
From WaxProofs Require Import EncodeFacts.

(* captures 1..n correspond one to one to the capturing tokens of the top-level concatenation:
   the compiled program has exactly one group per capturing token and none for nested tokens *)
Theorem C04_group_count :
  forall t, flat_top t -> ngroups (encode t) = length (filter is_capturing (concatenation t)).
Proof. exact group_count. Qed.
Print Assumptions C04_group_count.

Theorem C04_nested_tokens_do_not_capture : forall t s e, ngroups (enc_tok false t s e) = 0%nat.
Proof. exact ngroups_enc_false. Qed.
Print Assumptions C04_nested_tokens_do_not_capture.

(* text captured by `?`, `*`, `$` or a class never contains a separator (the group's own language) *)
Theorem C04_wildcard_capture_separator_free :
  forall orbit cap s e lz w, sem orbit (enc_leaf cap s e (LZom lz)) w -> nosep w = true.
Proof. intros orbit cap s e lz w. exact (proj1 (zom_sem orbit cap s e lz w)). Qed.
Print Assumptions C04_wildcard_capture_separator_free.

From WaxProofs Require Import CaptureFacts.
Local Open Scope nat_scope.

(* the assignment of captures is consistent, for every glob whose top-level tokens are not themselves concatenations (all
   parsed globs), every path and *every* parse the engine can end with (any final continuation: the leftmost-first parse of
   the model engine as well as any other parse - the regex crate reorders priorities by lifting common prefixes out of
   alternations, and the correspondence check accepts its assignment only if the model engine finds a parse with it):
   the path splits into one text per top-level token, each matched by its own token; a capturing token other than a tree
   wildcard recorded exactly its text in its own group, a tree wildcard nothing or a span inside its text; groups are
   numbered in token order, so captures are ordered, do not overlap, and the text between them is the text of the tokens
   between *)
Theorem C04_captures_are_a_consistent_assignment : forall orbit t fuel w k x, flat_top t ->
  m orbit (length w) fuel (encode t) 0 w [] k = Some x ->
  exists us v c', w = concat us ++ v /\
    Forall2 (fun t u => exists s' e', sem orbit (enc_tok true t s' e') u) (concatenation t) us /\
    k v c' = Some x /\ assigned (concatenation t) 0 0 us c'.
Proof. exact glob_captures_valid. Qed.
Print Assumptions C04_captures_are_a_consistent_assignment.

(* what the engine records: groups of a sub-expression are only set inside the text it matched, other groups are left alone,
   and a capturing group records exactly the text of what it wraps.  The hypothesis [length w <= total] only gives the
   offsets [total - length w] their meaning (no truncated subtraction); the proof does not need it *)
Theorem C04_engine_captures : forall orbit fuel total r g w c k x, length w <= total -> m orbit total fuel r g w c k = Some x ->
  exists u v c', w = u ++ v /\ sem orbit r u /\ k v c' = Some x /\
    eff g (ngroups r) (total - length w) (total - length v) c c' /\
    (forall a, r = RGroup true a -> get_cap g c' = Some (total - length w, total - length v)).
Proof. intros orbit fuel total r g w c k x _. apply m_caps. Qed.
Print Assumptions C04_engine_captures.
