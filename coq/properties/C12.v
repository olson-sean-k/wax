(* C12 -- Root and semantic-literal queries agree with what the pattern matches. *)
From WaxModel Require Import Base Token Spec Variance Fold.
From WaxProofs Require Import SpecFacts.

(* for every token tree (globs and combinators): "always rooted" => every path of the documented language
   begins with a separator *)
Theorem C12_root_sound :
  forall orbit t p, nonempty_branches t = true -> has_root t = Always -> Lang orbit t p -> starts_sep p = true.
Proof. exact root_sound. Qed.
Print Assumptions C12_root_sound.

From WaxModel Require Import Query.
From WaxProofs Require Import SemanticFacts.

(* the breadth-first search behind has_semantic_literals reaches every component at every nesting depth: whenever some
   component of the expression - directly, or inside any branch of any alternation or repetition - is spelled entirely
   with literals whose text is `.` or `..`, the query answers true (no fuel condition: the model's fuel is proved adequate) *)
Theorem C12_semantic_literals_found :
  forall t, has_sem (components (concatenation t)) -> has_semantic_literals t = true.
Proof. exact semantic_literals_found. Qed.
Print Assumptions C12_semantic_literals_found.

(* the premise is satisfiable below two levels of nesting: a/{b,<c/..>} *)
Example C12_semantic_nonvacuous :
  let sp := (0%N, 0%N) in
  let lit s := TLeaf sp (LLit false s) in
  let inner := TCat sp [lit [99%N]; TLeaf sp LSep; lit [DOT; DOT]] in
  let alt := TAlt sp [TCat sp [lit [98%N]]; TCat sp [TRep sp inner 1%N None]] in
  let t := TCat sp [lit [97%N]; TLeaf sp LSep; alt] in
  has_sem (components (concatenation t)) /\ has_semantic_literals t = true.
Proof.
  cbv zeta. split; [|vm_compute; reflexivity].
  eapply hs_deeper; [right; left; reflexivity|vm_compute; reflexivity|left; reflexivity|reflexivity|].
  eapply hs_deeper; [left; reflexivity|vm_compute; reflexivity|right; left; reflexivity|reflexivity|].
  eapply hs_deeper; [left; reflexivity|vm_compute; reflexivity|left; reflexivity|reflexivity|].
  eapply hs_deeper; [left; reflexivity|vm_compute; reflexivity|left; reflexivity|reflexivity|].
  eapply hs_here; [right; left; reflexivity|vm_compute; reflexivity|vm_compute; reflexivity].
Qed.

From WaxModel Require Import Glob.
From WaxProofs Require Import BuiltNonempty.

(* for every glob that builds (no side condition on the tree) *)
Theorem C12_built_root_sound : forall orbit e t r p, build e = BuildOk t r -> has_root t = Always -> Lang orbit t p -> starts_sep p = true.
Proof. exact built_root_sound. Qed.
Print Assumptions C12_built_root_sound.

Theorem C12_built_globs_have_nonempty_branches : forall e t r, build e = BuildOk t r -> nonempty_branches t = true.
Proof. exact built_nonempty_branches. Qed.
Print Assumptions C12_built_globs_have_nonempty_branches.

From WaxProofs Require Import DepthAltFacts RootRep.

(* the second sentence, for every glob that builds and has no repetition: it reports "always" or "never", not "sometimes".  An
   alternation at the beginning of the expression, at any nesting, has no branch that begins with a root: the rule checker rejects
   it (RootedSubGlob) through the outer context that nested branches inherit, so the fold over starting tokens answers Never.
   With repetitions the claim fails: the known class nested_rooting *)
Theorem C12_built_globs_without_repetitions_are_never_sometimes_rooted : forall e t r,
  build e = BuildOk t r -> rep_free t = true -> has_root t <> Sometimes.
Proof. exact built_never_sometimes. Qed.
Print Assumptions C12_built_globs_without_repetitions_are_never_sometimes_rooted.

(* beyond globs without repetitions: `has_root` only reads the starting chain of the tree (the first token, and through alternations
   the first token of every branch), so repetitions anywhere else are irrelevant; and an expression may begin with a repetition whose
   body begins with a leaf (`<a/:1,>b`; `</a:1,>` is rooted like its leaf; `</a:0,>` is rejected as a rooted sub-glob, which is exactly
   what makes the optional case Never).  The complement - a repetition at the beginning of an alternation branch or of another
   repetition - is the known class nested_rooting (`{</a:1,>,c}` builds and is sometimes rooted) *)
Theorem C12_built_globs_that_start_plainly_are_never_sometimes_rooted : forall e t r,
  build e = BuildOk t r -> starts_plainly t = true -> has_root t <> Sometimes.
Proof. exact built_never_sometimes_r. Qed.
Print Assumptions C12_built_globs_that_start_plainly_are_never_sometimes_rooted.

(* the premises are satisfiable: <a/:0,>{b,c}<d:0,> (never rooted), </a:1,>b (always rooted) *)
Example C12_starts_plainly_nonvacuous :
  (let e := [60;97;47;58;48;44;62;123;98;44;99;125;60;100;58;48;44;62]%N in
   exists t r, build e = BuildOk t r /\ starts_plainly t = true /\ rep_free t = false /\ has_root t = Never) /\
  (let e := [60;47;97;58;49;44;62;98]%N in
   exists t r, build e = BuildOk t r /\ starts_plainly t = true /\ has_root t = Always).
Proof. cbv zeta. split; do 2 eexists; repeat (split; [vm_compute; reflexivity|]); vm_compute; reflexivity. Qed.

(* the complement is not empty: {</a:1,>,c} builds and is sometimes rooted (known class nested_rooting) *)
Example C12_a_repetition_at_the_beginning_of_a_branch_may_be_sometimes_rooted :
  let e := [123;60;47;97;58;49;44;62;44;99;125]%N in
  exists t r, build e = BuildOk t r /\ starts_plainly t = false /\ has_root t = Sometimes.
Proof. cbv zeta. do 2 eexists. repeat (split; [vm_compute; reflexivity|]); vm_compute; reflexivity. Qed.
